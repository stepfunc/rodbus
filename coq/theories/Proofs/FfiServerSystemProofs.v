(* End-to-end statements for the C-ABI server: the refinement lemmas of the server core
   (ServerProofs.handle_frame_refines / session_refines, SystemProofs.server_system_refines) and the
   multi-drop theorems of Properties/C17.v, instantiated with the C-ABI RequestHandlerWrapper
   (Model/FfiServer.v `ffi_handler W`, for an ARBITRARY application W : c_write_handler A):

     - a client read is answered from the point database: exception 02 iff it touches an absent
       point, otherwise the values held (C19 on the wire);
     - a client write is answered with what the application's C callback returned - success,
       standard exception, raw exception code; exception 01 when the callback is not set - and the
       unit's database / application state become what the callback left (C18 on the wire);
   per frame, per connection (frame sequences), and for the server as a whole (byte streams in
   arbitrary read chunks). *)
From Coq Require Import NArith List String Bool.
From Rodbus Require Import Base.Outcome Base.ServerTypes Model.Server Spec.Modbus
  Proofs.ServerParse Proofs.ServerProofs Proofs.ServerProps.
From Rodbus Require Import Gen.FfiTables Model.Ffi Proofs.FfiProofs Model.DbTypes Spec.MapSpec.
From Rodbus Require Model.Database Proofs.DatabaseProofs Model.FfiServer.
From Rodbus Require Properties.C17.
From Rodbus Require Base.Frame Spec.Framing Model.SystemServer Spec.SystemSpec Proofs.SystemProofs.
From Rodbus Require Import Spec.FfiServerSpec Model.FfiServerDefs.
Import ListNotations.
Local Open Scope N_scope.

Notation abs := DatabaseProofs.abs.
Notation ffi_handler := FfiServer.ffi_handler.

Lemma sset_eq {St} (g : N -> St) h st : sset g h st h = st.
Proof. unfold sset. now rewrite N.eqb_refl. Qed.
Lemma sset_neq {St} (g : N -> St) h st k : k <> h -> sset g h st k = g k.
Proof. intros Hk. unfold sset. destruct (N.eqb_spec k h); [contradiction|reflexivity]. Qed.
Lemma sset_id {St} (g : N -> St) h st k : g h = st -> sset g h st k = g k.
Proof. intros E. unfold sset. destruct (N.eqb_spec k h) as [->|]; [now symmetry|reflexivity]. Qed.

Lemma flat_map_map {X Y Z} (f : Y -> list Z) (g : X -> Y) l : flat_map f (map g l) = flat_map (fun x => f (g x)) l.
Proof. induction l as [|x l IH]; [reflexivity|]. cbn [map flat_map]. now rewrite IH. Qed.
Lemma map_snd_diag (ids : list N) : map snd (map (fun u : N => (u, u)) ids) = ids.
Proof. induction ids as [|x l IH]; [reflexivity|]. cbn [map snd]. now rewrite IH. Qed.

(* the read loop of the reference server is the read loop of the database model *)
Lemma read_seq_read_range {T} (get : N -> T + N) mk n : forall s,
  fst (read_seq get mk s n) = Database.read_range get s n.
Proof.
  induction n as [|n IH]; intros s; cbn [read_seq Database.read_range fst]; [reflexivity|].
  destruct (get s) as [v|e]; [|reflexivity]. rewrite <- IH.
  destruct (read_seq get mk (s + 1) n) as [[vs|e] lg]; reflexivity.
Qed.

Lemma bit_payload_map xs : bit_payload (map VBit xs) = xs.
Proof. unfold bit_payload. induction xs as [|x xs IH]; [reflexivity|]. cbn [map flat_map app]. now rewrite IH. Qed.
Lemma reg_payload_map xs : reg_payload (map VReg xs) = xs.
Proof. unfold reg_payload. induction xs as [|x xs IH]; [reflexivity|]. cbn [map flat_map app]. now rewrite IH. Qed.

(* a read of the reference server whose getter is a map of the database: `resp` is bits_response fc
   or regs_response fc, f the value constructor of the point type *)
Lemma ref_exec_read_pdu {X S} (st : S) (f : X -> value) (resp : (list X + N) * list event -> list N * list event)
    fc t (d : database) get mk s n :
  (forall vs lg, resp (inl vs, lg) = (values_pdu fc t (map f vs), lg)) ->
  (forall e lg, resp (inr e, lg) = (exception_pdu fc e, lg)) ->
  Database.reply_map f (Database.read_range get s (N.to_nat n)) = Database.read_reply d t s (N.to_nat n) ->
  (let '(pdu, log) := resp (read_seq get mk s (N.to_nat n)) in (st, pdu, log)) =
    (st, read_pdu fc t (abs d t) s n, snd (read_seq get mk s (N.to_nat n))).
Proof.
  intros Hv He E. unfold read_pdu. rewrite <- DatabaseProofs.read_reply_abs, <- E, <- (read_seq_read_range get mk).
  destruct (read_seq get mk s (N.to_nat n)) as [[vs|e] lg]; cbn [fst snd Database.reply_map]; [rewrite Hv|rewrite He]; reflexivity.
Qed.

(* a read request carries one of the function codes 1-4 *)
Lemma decode_read_fc pdu fc r t s n : decode pdu = Valid fc r -> read_target r = Some (t, s, n) ->
  fc = 1 \/ fc = 2 \/ fc = 3 \/ fc = 4.
Proof. intros Hd Ht. rewrite (decode_valid_fc _ _ _ Hd). destruct r; try discriminate Ht; cbn [request_fc]; auto. Qed.

(* the ADU determines the PDU *)
Lemma adu_inj l tx u p q : adu l tx u p = adu l tx u q -> p = q.
Proof.
  destruct l; unfold adu.
  - unfold be. cbn [app]. intros E. now injection E.
  - cbv zeta. intros E.
    change (?x ++ [?a; ?b]) with (x ++ [a] ++ [b]) in E. rewrite !app_assoc in E.
    apply app_inj_tail in E as [E _]. apply app_inj_tail in E as [E _]. now injection E.
Qed.

Lemma values_pdu_head fc t vs : exists rest, values_pdu fc t vs = fc :: rest.
Proof. destruct t; cbn [values_pdu]; eexists; reflexivity. Qed.

Lemma read_pdu_exception_iff fc t f s n e : (fc = 1 \/ fc = 2 \/ fc = 3 \/ fc = 4) ->
  read_pdu fc t f s n = exception_pdu fc e <->
  e = 2 /\ exists k, (k < N.to_nat n)%nat /\ f (s + N.of_nat k) = None.
Proof.
  intros Hfc. rewrite <- DatabaseProofs.spec_read_exception. unfold read_pdu.
  destruct (spec_read f s (N.to_nat n)) as [vs|e'].
  - split; [|discriminate]. destruct (values_pdu_head fc t vs) as [rest ->]. unfold exception_pdu. intros [= E _]. exfalso.
    destruct Hfc as [-> | [-> | [-> | ->]]]; discriminate.
  - unfold exception_pdu. split; [now intros [= ->]|now intros [= ->]].
Qed.

Lemma read_pdu_values fc t f s n vs :
  map Some vs = map (fun k => f (s + N.of_nat k)) (seq 0 (N.to_nat n)) -> read_pdu fc t f s n = values_pdu fc t vs.
Proof. intros E. apply DatabaseProofs.spec_read_values in E. unfold read_pdu. now rewrite E. Qed.

Definition write_methods : list string :=
  ["write_single_coil"; "write_single_register"; "write_multiple_coils"; "write_multiple_registers"]%string.

(* each RequestHandlerWrapper write method is a member of the generated table write_wrappers *)
Lemma wrapper_of_known m : In m write_methods -> exists w, FfiServer.wrapper_of m = Some w /\ In w write_wrappers.
Proof.
  intros Hm. destruct (FfiServer.wrapper_of m) as [w|] eqn:E.
  - exists w. split; [reflexivity|]. unfold FfiServer.wrapper_of in E. now apply find_some in E.
  - exfalso. cbn [write_methods In] in Hm. destruct Hm as [<-|[<-|[<-|[<-|[]]]]]; vm_compute in E; discriminate.
Qed.

(* a valid write executed by the reference server: one handler call, echo or exception *)
Lemma ref_exec_write {St} (H : handler St) fc u st r : is_write r = true ->
  ref_exec H fc u st r =
    (fst (apply_write H st r), write_response fc (snd (apply_write H st r)) (write_echo r), write_call u r).
Proof.
  destruct r; try discriminate; intros _; cbn [ref_exec write_echo]; destruct (apply_write H st _); reflexivity.
Qed.

(* the reference server on a valid, permitted request to a served unit *)
Lemma ref_frame_served {St} (H : handler St) l a (units : ucfg St) fr u h st fc r :
  f_dest fr = DUnit u -> lookup u (u_map units) = Some h -> u_store units h = st ->
  decode (f_pdu fr) = Valid fc r -> fst (authorize a u r) = true ->
  reply_of (ref_handle_frame H l a units fr) = adu l (f_tx fr) u (snd (fst (ref_exec H fc h st r))) /\
  units_of (ref_handle_frame H l a units fr) = with_store units (sset (u_store units) h (fst (fst (ref_exec H fc h st r)))).
Proof.
  intros Hd Hl <- Hdec Hau. unfold ref_handle_frame. rewrite Hdec, Hd. cbn [dest_value].
  destruct (authorize a u r) as [ok alog]. cbn [fst] in Hau. subst ok. cbn [negb]. rewrite Hl.
  destruct (ref_exec H fc h (u_store units h) r) as [[st' pdu] lg]. split; reflexivity.
Qed.

Lemma nth_frame_ok l frames k fr : Forall (frame_ok l) frames -> nth_error frames k = Some fr -> frame_ok l fr.
Proof. intros Hok Hk. exact (proj1 (Forall_forall _ _) Hok fr (nth_error_In _ _ Hk)). Qed.

Lemma Forall_firstn {T} (P : T -> Prop) k : forall l, Forall P l -> Forall P (firstn k l).
Proof. induction k as [|k IH]; intros [|x l] Hl; cbn [firstn]; auto. inversion Hl; subst. constructor; auto. Qed.

Section Sessions.
Context {St : Type}.
Variable H : handler St.

Lemma ref_session_reply l a (units : ucfg St) fr rest :
  reply_of (ref_session H l a units (fr :: rest)) =
    reply_of (ref_handle_frame H l a units fr) :: reply_of (ref_session H l a (units_of (ref_handle_frame H l a units fr)) rest).
Proof.
  cbn [ref_session]. destruct (ref_handle_frame H l a units fr) as [[reply units'] lg].
  change (units_of (reply, units', lg)) with units'. now destruct (ref_session H l a units' rest) as [[rs u''] lg'].
Qed.

Lemma ref_session_units l a (units : ucfg St) fr rest :
  units_of (ref_session H l a units (fr :: rest)) = units_of (ref_session H l a (units_of (ref_handle_frame H l a units fr)) rest).
Proof.
  cbn [ref_session]. destruct (ref_handle_frame H l a units fr) as [[reply units'] lg].
  change (units_of (reply, units', lg)) with units'. now destruct (ref_session H l a units' rest) as [[rs u''] lg'].
Qed.

(* the k-th reply of the reference session is the reference reply to the k-th frame on the unit
   map left by the first k frames, which that frame takes to the one left by the first k + 1 *)
Lemma ref_session_at l a : forall frames (units : ucfg St) k fr, nth_error frames k = Some fr ->
  nth_error (reply_of (ref_session H l a units frames)) k =
    Some (reply_of (ref_handle_frame H l a (units_of (ref_session H l a units (firstn k frames))) fr)) /\
  units_of (ref_session H l a units (firstn (S k) frames)) =
    units_of (ref_handle_frame H l a (units_of (ref_session H l a units (firstn k frames))) fr).
Proof.
  induction frames as [|f frames IH]; intros units [|k] fr Hk; try discriminate; cbn [nth_error] in Hk.
  - injection Hk as ->. change (firstn 1 (fr :: frames)) with [fr]. rewrite ref_session_reply, ref_session_units. split; reflexivity.
  - change (firstn (S (S k)) (f :: frames)) with (f :: firstn (S k) frames).
    change (firstn (S k) (f :: frames)) with (f :: firstn k frames).
    rewrite ref_session_reply, !ref_session_units. exact (IH _ k fr Hk).
Qed.

Lemma units_before_ref l a frames (units : ucfg St) k : Forall (frame_ok l) frames ->
  units_before H l a units frames k = units_of (ref_session H l a units (firstn k frames)).
Proof.
  intros Hok. unfold units_before. rewrite (session_refines H l a _ units (Forall_firstn _ k _ Hok)).
  destruct (ref_session H l a units (firstn k frames)) as [[rs u1] lg]. reflexivity.
Qed.

Lemma units_before_0 l a frames (units : ucfg St) : units_before H l a units frames 0 = units.
Proof. reflexivity. Qed.

(* the code model of a connection, frame by frame: the k-th entry of the replies written is the
   code's reply to the k-th frame on the unit map the first k frames left, which the k-th frame
   takes to the next one *)
Theorem session_nth : forall l a frames (units : ucfg St) k fr,
  Forall (frame_ok l) frames -> nth_error frames k = Some fr ->
  exists reply,
    reply_of (handle_frame H l a (units_before H l a units frames k) fr) = Ok reply /\
    nth_error (replies_of (session H l a units frames)) k = Some reply /\
    units_before H l a units frames (S k) = units_of (handle_frame H l a (units_before H l a units frames k) fr).
Proof.
  intros l a frames units k fr Hok Hk.
  rewrite !units_before_ref by assumption.
  rewrite (handle_frame_refines H l a _ fr (nth_frame_ok _ _ _ _ Hok Hk)), lift3_reply, lift3_units.
  destruct (ref_session_at l a frames units k fr Hk) as [E1 E2].
  eexists. split; [reflexivity|]. split; [|exact E2].
  rewrite (session_refines H l a frames units Hok). now destruct (ref_session H l a units frames) as [[rs u1] lg].
Qed.
End Sessions.
Print Assumptions session_nth.

Module F := Rodbus.Base.Frame.
Notation server_system := SystemServer.server_system.
Notation ref_cut := SystemSpec.ref_cut.
Notation bytes := Framing.bytes.

(* the frames the framing rule of the link (MBAP length field / RTU length rule + CRC gate) cuts
   from the byte stream s, as the session sees them *)
Definition cut_frames (l : link) (s : list N) (fi : F.fin) : list frame :=
  map SystemServer.to_server_frame (fst (ref_cut l s fi)).

Theorem cut_frames_ok l s fi : bytes s -> Forall (frame_ok l) (cut_frames l s fi).
Proof. exact (SystemProofs.cut_ok l s fi). Qed.
Print Assumptions cut_frames_ok.

(* server_system_refines read backwards through session_refines: the server as a whole IS the
   code's session over the frames the framing rule delimits *)
Theorem system_is_session {St} (H : handler St) l a (units : ucfg St) s chunks fi :
  bytes s -> List.concat chunks = s -> Forall (fun c => c <> []) chunks ->
  fst (server_system H l a units chunks fi) = session H l a units (cut_frames l s fi).
Proof.
  intros Hb Hc Hne. rewrite (session_refines H l a _ units (cut_frames_ok l s fi Hb)).
  rewrite (SystemProofs.server_system_refines H l a units s chunks fi Hb Hc Hne). reflexivity.
Qed.
Print Assumptions system_is_session.

Section App.
Variable A : Type.
Variable W : c_write_handler A.
Notation H := (ffi_handler W).
Notation units_t := (ucfg (database * A)).

(* what the reference server computes for a read on the C-ABI handler *)
Lemma ffi_ref_exec_read fc u d app r t s n : read_target r = Some (t, s, n) ->
  ref_exec H fc u (d, app) r =
    (d, app, read_pdu fc t (abs d t) s n, read_calls H u (d, app) r).
Proof.
  destruct r; try discriminate; intros [= <- <- <-]; cbn [ref_exec read_calls ffi_handler ServerTypes.read_coil
    ServerTypes.read_discrete_input ServerTypes.read_holding_register ServerTypes.read_input_register fst].
  3,4: apply (ref_exec_read_pdu (d, app) VReg (regs_response fc)).   (* holding and input registers *)
  1,2: apply (ref_exec_read_pdu (d, app) VBit (bits_response fc)).   (* coils and discrete inputs *)
  all: try reflexivity.
  all: intros vs lg; cbn [bits_response regs_response values_pdu]; now rewrite ?bit_payload_map, ?reg_payload_map.
Qed.

(* the served handler object is the one unit id u maps to (index h); it holds database d and
   application state app *)
Theorem system_read_frame : forall l a (units : units_t) fr u h d app fc r t s n,
  frame_ok l fr -> f_dest fr = DUnit u -> lookup u (u_map units) = Some h -> u_store units h = (d, app) ->
  decode (f_pdu fr) = Valid fc r -> read_target r = Some (t, s, n) -> fst (authorize a u r) = true ->
  let x := handle_frame H l a units fr in
  reply_of x = Ok (adu l (f_tx fr) u (read_pdu fc t (abs d t) s n)) /\
  u_map (units_of x) = u_map units /\ forall k, u_store (units_of x) k = u_store units k.
Proof.
  intros l a units fr u h d app fc r t s n Hok Hd Hl Hst Hdec Ht Hau x. subst x.
  rewrite (handle_frame_refines H l a units fr Hok), lift3_reply, lift3_units.
  destruct (ref_frame_served H l a units fr u h (d, app) fc r Hd Hl Hst Hdec Hau) as [-> ->].
  rewrite (ffi_ref_exec_read fc h d app r t s n Ht). cbn [fst snd with_store u_map u_store].
  split; [reflexivity|]. split; [reflexivity|]. intros k. now apply sset_id.
Qed.

(* C19 on the wire: the reply is an exception reply iff the read touches an absent point, and then
   the code is 02 *)
Theorem system_read_exception_iff : forall l a (units : units_t) fr u h d app fc r t s n e,
  frame_ok l fr -> f_dest fr = DUnit u -> lookup u (u_map units) = Some h -> u_store units h = (d, app) ->
  decode (f_pdu fr) = Valid fc r -> read_target r = Some (t, s, n) -> fst (authorize a u r) = true ->
  (reply_of (handle_frame H l a units fr) = Ok (adu l (f_tx fr) u (exception_pdu fc e)) <->
   e = 2 /\ exists k, (k < N.to_nat n)%nat /\ abs d t (s + N.of_nat k) = None).
Proof.
  intros l a units fr u h d app fc r t s n e Hok Hd Hl Hst Hdec Ht Hau.
  destruct (system_read_frame l a units fr u h d app fc r t s n Hok Hd Hl Hst Hdec Ht Hau) as [-> _].
  rewrite <- (read_pdu_exception_iff fc t (abs d t) s n e (decode_read_fc _ _ _ _ _ _ Hdec Ht)).
  split; [|now intros ->]. intros [= E]. exact (adu_inj _ _ _ _ _ E).
Qed.

Corollary system_read_absent : forall l a (units : units_t) fr u h d app fc r t s n,
  frame_ok l fr -> f_dest fr = DUnit u -> lookup u (u_map units) = Some h -> u_store units h = (d, app) ->
  decode (f_pdu fr) = Valid fc r -> read_target r = Some (t, s, n) -> fst (authorize a u r) = true ->
  (exists k, (k < N.to_nat n)%nat /\ abs d t (s + N.of_nat k) = None) ->
  reply_of (handle_frame H l a units fr) = Ok (adu l (f_tx fr) u (exception_pdu fc 2)).
Proof. intros. eapply system_read_exception_iff; eauto. Qed.

(* ... and when every point of the range is present the reply carries exactly their values, in
   ascending address order *)
Theorem system_read_present : forall l a (units : units_t) fr u h d app fc r t s n,
  frame_ok l fr -> f_dest fr = DUnit u -> lookup u (u_map units) = Some h -> u_store units h = (d, app) ->
  decode (f_pdu fr) = Valid fc r -> read_target r = Some (t, s, n) -> fst (authorize a u r) = true ->
  (forall k, (k < N.to_nat n)%nat -> abs d t (s + N.of_nat k) <> None) ->
  exists vs, map Some vs = map (fun k => abs d t (s + N.of_nat k)) (seq 0 (N.to_nat n)) /\
             reply_of (handle_frame H l a units fr) = Ok (adu l (f_tx fr) u (values_pdu fc t vs)).
Proof.
  intros l a units fr u h d app fc r t s n Hok Hd Hl Hst Hdec Ht Hau Hall.
  destruct (system_read_frame l a units fr u h d app fc r t s n Hok Hd Hl Hst Hdec Ht Hau) as [-> _].
  unfold read_pdu. destruct (spec_read (abs d t) s (N.to_nat n)) as [vs|e] eqn:E.
  - exists vs. split; [now apply DatabaseProofs.spec_read_values|reflexivity].
  - exfalso. apply DatabaseProofs.spec_read_exception in E as (_ & k & Hk & Hn). exact (Hall k Hk Hn).
Qed.

(* the handler result of a RequestHandlerWrapper write method as an exception byte (None = Ok(())) *)
Definition write_byte (cb : option (A * database * c_result)) : option N :=
  match cb with
  | None => Some 1
  | Some (_, _, (s, e, raw)) => reply_exception_byte (convert_to_result s e raw)
  end.

Lemma finish_write_spec m (st : database * A) cb : In m write_methods ->
  FfiServer.finish_write m st cb = (state_after (fst st) (snd st) cb, write_byte cb).
Proof.
  intros Hm. destruct (wrapper_of_known m Hm) as (w & Ew & Hin). unfold FfiServer.finish_write. rewrite Ew.
  destruct st as [d app]. destruct cb as [[[app' d'] [[s e] raw]]|]; cbn [option_map snd fst state_after write_byte].
  - set (x := wrapper_result w _).
    assert (Ex : x = Some (convert_to_result s e raw)) by exact (proj1 (write_result_forwarded w Hin s e raw)).
    now rewrite Ex.
  - set (x := wrapper_result w _).
    assert (Ex : x = Some (Some REC_IllegalFunction)) by exact (write_result_callback_unset w Hin).
    now rewrite Ex.
Qed.

Definition method_of (r : Modbus.request) : string :=
  match r with
  | WriteSingleCoil _ _ => "write_single_coil" | WriteSingleRegister _ _ => "write_single_register"
  | WriteMultipleCoils _ _ => "write_multiple_coils" | _ => "write_multiple_registers"
  end%string.

(* what a write does to one unit of the C-ABI server: the callback of the request's function runs
   once on the unit's own application state and database; both become what it left *)
Lemma ffi_apply_write d app r : is_write r = true ->
  apply_write H (d, app) r = (state_after d app (callback_outcome W app d r), write_byte (callback_outcome W app d r)).
Proof.
  intros Hw. transitivity (FfiServer.finish_write (method_of r) (d, app) (callback_outcome W app d r)).
  - destruct r; try discriminate; reflexivity.
  - apply (finish_write_spec (method_of r) (d, app)). destruct r; try discriminate; cbn; tauto.
Qed.

(* C18: the reply the protocol builds from the wrapper's result is the one the Spec prescribes for
   the callback's WriteResult *)
Lemma write_response_write_pdu fc r cb :
  write_response fc (write_byte cb) (write_echo r) = write_pdu fc r (option_map client_view cb).
Proof.
  destruct cb as [[[app' d'] [[s e] raw]]|]; cbn [option_map client_view write_pdu write_byte]; [|reflexivity].
  rewrite <- convert_spec. destruct (reply_exception_byte _); reflexivity.
Qed.

Theorem system_write_frame : forall l a (units : units_t) fr u h d app fc r,
  frame_ok l fr -> f_dest fr = DUnit u -> lookup u (u_map units) = Some h -> u_store units h = (d, app) ->
  decode (f_pdu fr) = Valid fc r -> is_write r = true -> fst (authorize a u r) = true ->
  let cb := callback_outcome W app d r in
  let x := handle_frame H l a units fr in
  reply_of x = Ok (adu l (f_tx fr) u (write_pdu fc r (option_map client_view cb))) /\
  u_map (units_of x) = u_map units /\
  u_store (units_of x) h = state_after d app cb /\
  forall k, k <> h -> u_store (units_of x) k = u_store units k.
Proof.
  intros l a units fr u h d app fc r Hok Hd Hl Hst Hdec Hw Hau cb x. subst x.
  rewrite (handle_frame_refines H l a units fr Hok), lift3_reply, lift3_units.
  destruct (ref_frame_served H l a units fr u h (d, app) fc r Hd Hl Hst Hdec Hau) as [-> ->].
  rewrite (ref_exec_write H fc h (d, app) r Hw), (ffi_apply_write d app r Hw).
  cbn [fst snd with_store u_map u_store]. fold cb. rewrite write_response_write_pdu.
  split; [reflexivity|]. split; [reflexivity|]. split; [apply sset_eq|]. intros k Hk. now apply sset_neq.
Qed.

(* the same reply spelled out over the C enum: success -> echo; a standard exception -> its
   protocol code; Unknown -> the raw code; callback not set -> 01 *)
Lemma write_pdu_cases fc r (x : A * database * c_result) :
  write_pdu fc r (Some (client_view x)) =
    match x with
    | (_, _, (true, _, _)) => fc :: write_echo r
    | (_, _, (false, FME_Unknown, raw)) => exception_pdu fc raw
    | (_, _, (false, e, _)) => exception_pdu fc (ffi_modbus_exception_value e)
    end.
Proof. destruct x as [[app' d'] [[[] e] raw]]; destruct e; reflexivity. Qed.

Theorem system_write_reply_cases : forall l a (units : units_t) fr u h d app fc r,
  frame_ok l fr -> f_dest fr = DUnit u -> lookup u (u_map units) = Some h -> u_store units h = (d, app) ->
  decode (f_pdu fr) = Valid fc r -> is_write r = true -> fst (authorize a u r) = true ->
  reply_of (handle_frame H l a units fr) =
    Ok (adu l (f_tx fr) u
          match callback_outcome W app d r with
          | None => exception_pdu fc 1
          | Some (_, _, (true, _, _)) => fc :: write_echo r
          | Some (_, _, (false, FME_Unknown, raw)) => exception_pdu fc raw
          | Some (_, _, (false, e, _)) => exception_pdu fc (ffi_modbus_exception_value e)
          end).
Proof.
  intros l a units fr u h d app fc r Hok Hd Hl Hst Hdec Hw Hau.
  destruct (system_write_frame l a units fr u h d app fc r Hok Hd Hl Hst Hdec Hw Hau) as [-> _].
  destruct (callback_outcome W app d r) as [x|]; cbn [option_map]; [|reflexivity].
  rewrite write_pdu_cases. destruct x as [[app' d'] [[[] e] raw]]; reflexivity.
Qed.

(* In `session` - the code model of a connection on link l - the k-th frame being a permitted read
   of a unit id served at that point (by handler object h, holding database d): the k-th reply
   written is the C19 answer computed from d, and no handler object changes. *)
Theorem system_read_session : forall l a (units : units_t) frames k fr u h d app fc r t s n,
  Forall (frame_ok l) frames -> nth_error frames k = Some fr ->
  f_dest fr = DUnit u -> lookup u (u_map (units_before H l a units frames k)) = Some h ->
  u_store (units_before H l a units frames k) h = (d, app) ->
  decode (f_pdu fr) = Valid fc r -> read_target r = Some (t, s, n) -> fst (authorize a u r) = true ->
  nth_error (replies_of (session H l a units frames)) k = Some (adu l (f_tx fr) u (read_pdu fc t (abs d t) s n)) /\
  u_map (units_before H l a units frames (S k)) = u_map (units_before H l a units frames k) /\
  forall j, u_store (units_before H l a units frames (S k)) j = u_store (units_before H l a units frames k) j.
Proof.
  intros l a units frames k fr u h d app fc r t s n Hok Hk Hd Hl Hst Hdec Ht Hau.
  destruct (session_nth H l a frames units k fr Hok Hk) as (reply & E1 & E2 & E3). rewrite E3.
  destruct (system_read_frame l a _ fr u h d app fc r t s n (nth_frame_ok _ _ _ _ Hok Hk) Hd Hl Hst Hdec Ht Hau) as (R & U).
  rewrite R in E1. injection E1 as <-. exact (conj E2 U).
Qed.

(* ... a permitted write: the k-th reply is the C18 answer for what the application's callback
   returned when run on the application state and database that handler object holds at that
   point; the next frame finds the object with what the callback left, and every other object
   untouched *)
Theorem system_write_session : forall l a (units : units_t) frames k fr u h d app fc r,
  Forall (frame_ok l) frames -> nth_error frames k = Some fr ->
  f_dest fr = DUnit u -> lookup u (u_map (units_before H l a units frames k)) = Some h ->
  u_store (units_before H l a units frames k) h = (d, app) ->
  decode (f_pdu fr) = Valid fc r -> is_write r = true -> fst (authorize a u r) = true ->
  let cb := callback_outcome W app d r in
  nth_error (replies_of (session H l a units frames)) k
    = Some (adu l (f_tx fr) u (write_pdu fc r (option_map client_view cb))) /\
  u_map (units_before H l a units frames (S k)) = u_map (units_before H l a units frames k) /\
  u_store (units_before H l a units frames (S k)) h = state_after d app cb /\
  forall j, j <> h -> u_store (units_before H l a units frames (S k)) j = u_store (units_before H l a units frames k) j.
Proof.
  intros l a units frames k fr u h d app fc r Hok Hk Hd Hl Hst Hdec Hw Hau cb.
  destruct (session_nth H l a frames units k fr Hok Hk) as (reply & E1 & E2 & E3). rewrite E3.
  destruct (system_write_frame l a _ fr u h d app fc r (nth_frame_ok _ _ _ _ Hok Hk) Hd Hl Hst Hdec Hw Hau) as (R & U).
  rewrite R in E1. injection E1 as <-. exact (conj E2 U).
Qed.

(* Bytes bs arriving in arbitrary non-empty read chunks, through the production reader, into the
   session task: the frames are those the framing rule cuts from bs, and the k-th reply the server
   writes is as above. *)
Theorem system_read_stream : forall l a (units : units_t) bs chunks fi k fr u h d app fc r t s n,
  bytes bs -> List.concat chunks = bs -> Forall (fun c => c <> []) chunks ->
  let frames := cut_frames l bs fi in
  nth_error frames k = Some fr ->
  f_dest fr = DUnit u -> lookup u (u_map (units_before H l a units frames k)) = Some h ->
  u_store (units_before H l a units frames k) h = (d, app) ->
  decode (f_pdu fr) = Valid fc r -> read_target r = Some (t, s, n) -> fst (authorize a u r) = true ->
  nth_error (replies_of (fst (server_system H l a units chunks fi))) k
    = Some (adu l (f_tx fr) u (read_pdu fc t (abs d t) s n)) /\
  u_map (units_before H l a units frames (S k)) = u_map (units_before H l a units frames k) /\
  forall j, u_store (units_before H l a units frames (S k)) j = u_store (units_before H l a units frames k) j.
Proof.
  intros l a units bs chunks fi k fr u h d app fc r t s n Hb Hc Hne frames Hk Hd Hl Hst Hdec Ht Hau.
  rewrite (system_is_session H l a units bs chunks fi Hb Hc Hne).
  exact (system_read_session l a units frames k fr u h d app fc r t s n (cut_frames_ok l bs fi Hb) Hk Hd Hl Hst Hdec Ht Hau).
Qed.

Theorem system_write_stream : forall l a (units : units_t) bs chunks fi k fr u h d app fc r,
  bytes bs -> List.concat chunks = bs -> Forall (fun c => c <> []) chunks ->
  let frames := cut_frames l bs fi in
  nth_error frames k = Some fr ->
  f_dest fr = DUnit u -> lookup u (u_map (units_before H l a units frames k)) = Some h ->
  u_store (units_before H l a units frames k) h = (d, app) ->
  decode (f_pdu fr) = Valid fc r -> is_write r = true -> fst (authorize a u r) = true ->
  let cb := callback_outcome W app d r in
  nth_error (replies_of (fst (server_system H l a units chunks fi))) k
    = Some (adu l (f_tx fr) u (write_pdu fc r (option_map client_view cb))) /\
  u_map (units_before H l a units frames (S k)) = u_map (units_before H l a units frames k) /\
  u_store (units_before H l a units frames (S k)) h = state_after d app cb /\
  forall j, j <> h -> u_store (units_before H l a units frames (S k)) j = u_store (units_before H l a units frames k) j.
Proof.
  intros l a units bs chunks fi k fr u h d app fc r Hb Hc Hne frames Hk Hd Hl Hst Hdec Hw Hau cb.
  rewrite (system_is_session H l a units bs chunks fi Hb Hc Hne).
  exact (system_write_session l a units frames k fr u h d app fc r (cut_frames_ok l bs fi Hb) Hk Hd Hl Hst Hdec Hw Hau).
Qed.

(* the final unit configuration of the server as a whole is the one after all frames *)
Theorem system_stream_final_units : forall l a (units : units_t) bs chunks fi,
  bytes bs -> List.concat chunks = bs -> Forall (fun c => c <> []) chunks ->
  final_units_of (fst (server_system H l a units chunks fi))
    = units_before H l a units (cut_frames l bs fi) (List.length (cut_frames l bs fi)).
Proof.
  intros l a units bs chunks fi Hb Hc Hne. rewrite (system_is_session H l a units bs chunks fi Hb Hc Hne).
  unfold units_before. now rewrite firstn_all.
Qed.

Theorem ffi_silent : forall l (units : units_t) fr, frame_ok l fr ->
  reply_of (handle_frame H l NoAuth units fr) <> Ok [] -> exists u, f_dest fr = DUnit u /\ lookup u (u_map units) <> None.
Proof. exact (C17.C17_silent _ H). Qed.

Theorem ffi_silent_session : forall l (units : units_t) frames, Forall (frame_ok l) frames ->
  Forall2 (fun fr reply => reply <> [] -> exists u, f_dest fr = DUnit u /\ In u (map fst (u_map units)))
          frames (replies_of (session H l NoAuth units frames)).
Proof. exact (C17.C17_silent_session _ H). Qed.

Theorem ffi_broadcast_never_answered : forall l a (units : units_t) fr, frame_ok l fr ->
  f_dest fr = DBroadcast -> reply_of (handle_frame H l a units fr) = Ok [].
Proof. exact (C17.C17_broadcast_never_answered _ H). Qed.

Theorem ffi_broadcast_other : forall l (units : units_t) fr, frame_ok l fr ->
  f_dest fr = DBroadcast -> (forall fc r, decode (f_pdu fr) = Valid fc r -> is_write r = false) ->
  let x := handle_frame H l NoAuth units fr in reply_of x = Ok [] /\ log_of x = [] /\ units_of x = units.
Proof. exact (C17.C17_broadcast_other _ H). Qed.

(* a request addressed to a unit id acts on exactly the handler object (database + application
   state) that unit id maps to; every other object is untouched *)
Theorem ffi_unit_effect : forall l (units : units_t) fr fc r u h, frame_ok l fr ->
  f_dest fr = DUnit u -> lookup u (u_map units) = Some h -> decode (f_pdu fr) = Valid fc r ->
  let x := handle_frame H l NoAuth units fr in
  u_map (units_of x) = u_map units /\
  u_store (units_of x) h = fst (fst (ref_exec H fc h (u_store units h) r)) /\
  (forall k, k <> h -> u_store (units_of x) k = u_store units k).
Proof. exact (C17.C17_unit_effect _ H). Qed.

(* a valid broadcast write on the C-ABI server (device map: one RequestHandlerWrapper per unit id,
   no unit id twice): in unit id order, every unit's callback for the request's function runs
   exactly once, on that unit's own application state and database, which become what it left;
   its WriteResult is dropped; nothing else changes; nothing is answered *)
Theorem ffi_broadcast_write : forall l ids (store : N -> database * A) fr fc r, frame_ok l fr -> NoDup ids ->
  f_dest fr = DBroadcast -> decode (f_pdu fr) = Valid fc r -> is_write r = true ->
  let x := handle_frame H l NoAuth (device_map ids store) fr in
  reply_of x = Ok [] /\
  log_of x = flat_map (fun u => write_call u r) ids /\
  u_map (units_of x) = map (fun u => (u, u)) ids /\
  forall h d app, store h = (d, app) ->
    u_store (units_of x) h =
      if in_dec N.eq_dec h ids then state_after d app (callback_outcome W app d r) else (d, app).
Proof.
  intros l ids store fr fc r Hok Hnd Hd Hdec Hw x.
  destruct (C17.C17_broadcast_write _ H l (device_map ids store) fr fc r Hok Hd Hdec Hw) as (R & L & U).
  fold x in R, L, U. split; [exact R|]. split.
  - rewrite L. cbn [device_map u_map]. now rewrite flat_map_map.
  - rewrite U. cbn [device_map with_store u_map u_store]. split; [reflexivity|]. intros h d app Hst.
    rewrite (C17.C17_broadcast_once _ H r (map (fun u : N => (u, u)) ids) store h) by (now rewrite map_snd_diag).
    rewrite map_snd_diag, Hst. destruct (in_dec N.eq_dec h ids); [|reflexivity].
    now rewrite (ffi_apply_write d app r Hw).
Qed.
End App.
Print Assumptions system_read_frame.
Print Assumptions system_read_exception_iff.
Print Assumptions system_read_absent.
Print Assumptions system_read_present.
Print Assumptions system_write_frame.
Print Assumptions system_write_reply_cases.
Print Assumptions system_read_session.
Print Assumptions system_write_session.
Print Assumptions system_read_stream.
Print Assumptions system_write_stream.
Print Assumptions system_stream_final_units.
Print Assumptions ffi_silent.
Print Assumptions ffi_silent_session.
Print Assumptions ffi_broadcast_never_answered.
Print Assumptions ffi_broadcast_other.
Print Assumptions ffi_unit_effect.
Print Assumptions ffi_broadcast_write.

(* The programmable application of Model/FfiServer.v (prog_handler: addresses < 100 update an
   existing point, 100..109 answer the standard exceptions, 110..365 a raw code, >= 366 add the
   point) serving unit 1 over TCP. *)
Import Rodbus.Base.Show.

Definition demo_db : database :=
  {| Database.coils := [(0, true); (1, false); (2, true)]; Database.discrete := [];
     Database.holding := [(5, 4660); (6, 7)]; Database.input := [] |}.
(* the C ABI's device map with the single endpoint 1, whose handler object holds demo_db and an
   application counter 0 *)
Definition demo_units : ucfg (database * N) := device_map [1] (fun _ => (demo_db, 0)).
Definition demo_frame (tx : N) (pdu : list N) : frame := {| f_tx := Some tx; f_dest := DUnit 1; f_pdu := pdu |}.
Definition demo_frames : list frame :=
  [ demo_frame 1 [3; 0; 5; 0; 2];                      (* read holding 5-6: present                   -> 1234 0007 *)
    demo_frame 2 [3; 0; 5; 0; 3];                      (* read holding 5-7: 7 is absent               -> 83 02 *)
    demo_frame 3 [6; 0; 5; 190; 239];                  (* write register 5 := BEEF: callback succeeds -> echo *)
    demo_frame 4 [3; 0; 5; 0; 1];                      (* ... and the database holds it               -> BEEF *)
    demo_frame 5 [6; 0; 101; 0; 1];                    (* callback: IllegalDataAddress                -> 86 02 *)
    demo_frame 6 [6; 0; 150; 0; 1];                    (* callback: Unknown, raw code 40              -> 86 28 *)
    demo_frame 7 [6; 0; 50; 0; 1];                     (* update of an absent point fails             -> 86 02 *)
    demo_frame 8 [16; 0; 5; 0; 2; 4; 0; 1; 0; 2];      (* write registers 5-6 := 1, 2                 -> echo *)
    demo_frame 9 [3; 0; 5; 0; 2];                      (*                                             -> 0001 0002 *)
    demo_frame 10 [1; 0; 0; 0; 3];                     (* read coils 0-2 = 1,0,1                      -> 05 *)
    demo_frame 11 [5; 1; 144; 255; 0];                 (* write coil 400 := on: the callback ADDS it  -> echo *)
    demo_frame 12 [1; 1; 144; 0; 1];                   (* ... now present                             -> 01 *)
    demo_frame 13 [15; 0; 0; 0; 3; 1; 2];              (* write coils 0-2 := 0,1,0                    -> echo *)
    demo_frame 14 [1; 0; 0; 0; 3];                     (*                                             -> 02 *)
    demo_frame 15 [16; 0; 6; 0; 2; 4; 0; 9; 0; 9];     (* write registers 6-7: 7 absent               -> 90 02 ... *)
    demo_frame 16 [3; 0; 6; 0; 1] ].                   (* ... but 6 stays written (no roll back)      -> 0009 *)

Definition show_replies {U} (x : list (list N) * U * list event * session_end) : string :=
  show_list show_bytes "," (replies_of x).

Example ffi_session_nonvacuous :
  let x := session (ffi_handler FfiServer.prog_handler) LTcp NoAuth demo_units demo_frames in
  show_replies x =
    ("00010000000701030412340007,000200000003018302,00030000000601060005BEEF,000400000005010302BEEF," ++
     "000500000003018602,000600000003018628,000700000003018602,000800000006011000050002," ++
     "00090000000701030400010002,000A0000000401010105,000B0000000601050190FF00,000C0000000401010101," ++
     "000D00000006010F00000003,000E0000000401010102,000F00000003019002,0010000000050103020009")%string /\
  u_map (final_units_of x) = [(1, 1)] /\
  u_store (final_units_of x) 1 =
    ({| Database.coils := [(400, true); (0, false); (1, true); (2, false)]; Database.discrete := [];
        Database.holding := [(5, 1); (6, 9)]; Database.input := [] |}, 8) /\
  snd x = SOpen.
Proof. vm_compute. repeat split; reflexivity. Qed.
Print Assumptions ffi_session_nonvacuous.

(* an application that registers no callback: every write is answered with exception 01, reads
   are served, nothing changes *)
Example ffi_session_null_nonvacuous :
  let x := session (ffi_handler FfiServer.null_handler) LTcp NoAuth demo_units demo_frames in
  show_replies x =
    ("00010000000701030412340007,000200000003018302,000300000003018601,0004000000050103021234," ++
     "000500000003018601,000600000003018601,000700000003018601,000800000003019001," ++
     "00090000000701030412340007,000A0000000401010105,000B00000003018501,000C00000003018102," ++
     "000D00000003018F01,000E0000000401010105,000F00000003019001,0010000000050103020007")%string /\
  u_map (final_units_of x) = [(1, 1)] /\ u_store (final_units_of x) 1 = (demo_db, 0).
Proof. vm_compute. repeat split; reflexivity. Qed.
Print Assumptions ffi_session_null_nonvacuous.

(* the server as a whole: four requests arriving in six reads that split headers and PDUs, then a
   truncated fifth *)
Definition demo_stream : list (list N) :=
  [ [0; 1; 0]; [0; 0; 6; 1; 3; 0; 5; 0; 3; 0; 2; 0; 0; 0; 6; 1; 6; 0]; [150];
    [0; 1; 0; 3; 0; 0; 0; 6; 1; 6; 0; 5; 190; 239; 0; 4; 0; 0; 0; 6; 1; 3; 0; 5; 0]; [1]; [0; 5] ].

Example ffi_stream_nonvacuous :
  let x := server_system (ffi_handler FfiServer.prog_handler) LTcp NoAuth demo_units demo_stream F.FinEof in
  show_replies (fst x) = "000100000003018302,000200000003018628,00030000000601060005BEEF,000400000005010302BEEF"%string /\
  u_store (final_units_of (fst x)) 1 =
    ({| Database.coils := [(0, true); (1, false); (2, true)]; Database.discrete := [];
        Database.holding := [(5, 48879); (6, 7)]; Database.input := [] |}, 2) /\
  snd x = F.EndIo F.UnexpectedEof.
Proof. vm_compute. repeat split; reflexivity. Qed.
Print Assumptions ffi_stream_nonvacuous.

(* the hypotheses of the stream theorems are satisfiable: system_write_stream applied to the second
   request of demo_stream (write register 150: the callback answers Unknown with raw code 40) *)
Example ffi_stream_theorem_instance :
  nth_error (replies_of (fst (server_system (ffi_handler FfiServer.prog_handler) LTcp NoAuth demo_units demo_stream F.FinEof))) 1
  = Some (adu LTcp (Some 2) 1 (write_pdu 6 (WriteSingleRegister 150 1) (Some (false, "Unknown"%string, 40)))).
Proof.
  assert (Hb : bytes (List.concat demo_stream)) by (vm_compute; repeat constructor).
  assert (Hne : Forall (fun c : list N => c <> []) demo_stream) by (repeat constructor; discriminate).
  refine (proj1 (system_write_stream N FfiServer.prog_handler LTcp NoAuth demo_units _ demo_stream F.FinEof 1
                   (demo_frame 2 [6; 0; 150; 0; 1]) 1 1 demo_db 0 6 (WriteSingleRegister 150 1) Hb eq_refl Hne _ _ _ _ _ _ _));
    vm_compute; reflexivity.
Qed.
Print Assumptions ffi_stream_theorem_instance.

(* multi-drop: endpoints 1 and 2 on a serial line; a broadcast write of register 5 runs each
   endpoint's callback once on its own database, is not answered, and leaves handler index 3
   (no endpoint) alone *)
Example ffi_broadcast_nonvacuous :
  let x := handle_frame (ffi_handler FfiServer.prog_handler) LRtu NoAuth (device_map [1; 2] (fun _ => (demo_db, 0)))
             {| f_tx := None; f_dest := DBroadcast; f_pdu := [6; 0; 5; 1; 2] |} in
  reply_of x = Ok [] /\
  log_of x = [EvWriteSingleRegister 1 5 258; EvWriteSingleRegister 2 5 258] /\
  Database.holding (fst (u_store (units_of x) 1)) = [(5, 258); (6, 7)] /\ snd (u_store (units_of x) 1) = 1 /\
  Database.holding (fst (u_store (units_of x) 2)) = [(5, 258); (6, 7)] /\ snd (u_store (units_of x) 2) = 1 /\
  u_store (units_of x) 3 = (demo_db, 0).
Proof. vm_compute. repeat split; reflexivity. Qed.
Print Assumptions ffi_broadcast_nonvacuous.

(* what the Spec prescribes, spelled out on instances: absent point -> 02; success -> echo;
   standard exception -> its protocol code; Unknown -> the raw code; no callback -> 01 *)
Example spec_instances :
  read_pdu 3 Holding (abs demo_db Holding) 5 3 = [131; 2] /\
  read_pdu 3 Holding (abs demo_db Holding) 5 2 = [3; 4; 18; 52; 0; 7] /\
  read_pdu 1 Coil (abs demo_db Coil) 0 3 = [1; 1; 5] /\
  write_pdu 6 (WriteSingleRegister 5 48879) (Some (true, "Unknown"%string, 0)) = [6; 0; 5; 190; 239] /\
  write_pdu 6 (WriteSingleRegister 5 1) (Some (false, "ServerDeviceBusy"%string, 0)) = [134; 6] /\
  write_pdu 6 (WriteSingleRegister 5 1) (Some (false, "Unknown"%string, 40)) = [134; 40] /\
  write_pdu 16 (WriteMultipleRegisters 5 [1; 2]) None = [144; 1].
Proof. vm_compute. repeat split; reflexivity. Qed.
Print Assumptions spec_instances.

(* the wrapper object holds nothing but the C callbacks: no per-server state in which a role (or anything else about
   one session) could survive into another session; every method builds the role string from the role parameter of
   the very call, calls the same-named callback with the unit id and the range / index, and denies when unset *)
Theorem authz_wrapper_shape :
  authz_wrapper_fields = ["inner"]%string /\
  map aw_method authz_wrappers = ["read_coils"; "read_discrete_inputs"; "read_holding_registers"; "read_input_registers";
                                  "write_single_coil"; "write_single_register"; "write_multiple_coils"; "write_multiple_registers"]%string /\
  forallb (fun w => String.eqb (aw_callback w) (aw_method w) && match aw_role w with RoleOfThisCall => true | _ => false end
                    && String.eqb (aw_unit w) "unit_id.value" && (String.eqb (aw_arg w) "range.into()" || String.eqb (aw_arg w) "idx")
                    && aw_result_into w && aw_unset_denies w) authz_wrappers = true.
Proof. vm_compute. repeat split. Qed.

(* as a policy of the core: the C callback of the request's kind, applied to the frame's unit id, the request's range
   or index and THE ROLE PASSED IN - nothing else *)
Theorem ffi_policy_spec : forall (C : FfiServer.c_authz_handler) k u arg r,
  FfiServer.ffi_policy C k u arg r = match C k with Some f => f u arg r | None => false end.
Proof. intros C k u arg r. destruct k; cbv [FfiServer.ffi_policy FfiServer.authz_row]; cbn; destruct (C _); reflexivity. Qed.

(* a session of a C-ABI TLS+authz server whose handshake established role r (the core's `AuthHandler pol r`, C09 /
   Front_role): every authorization query of the session shows the C callback exactly r and the decision is the callback's *)
Theorem ffi_authorize_role : forall (C : FfiServer.c_authz_handler) r u req,
  authorize (AuthHandler (FfiServer.ffi_policy C) r) u req =
    (match C (kind_of req) with Some f => f u (arg_of req) r | None => false end,
     [EvAuth (kind_of req) u (arg_of req) r]).
Proof. intros C r u req. cbn [authorize]. now rewrite ffi_policy_spec. Qed.
