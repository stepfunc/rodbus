(* ClientOptions builder: every call sets its field and keeps the others; calls on distinct fields commute; a chain
   of calls yields what the documentation says (Spec/OptionsSpec.v), in every order.
   The facts about the generated table (every struct-update base is `self`, setter names and defaults are the
   documented ones) are finite checks over the table's constructors: they are where a changed source shows. *)
From Coq Require Import NArith List Bool Permutation.
From Rodbus Require Import Gen.ClientOptions Spec.OptionsSpec Model.OptionsBuilder.
Import ListNotations.

Lemma base_self : forall b, builder_base b = BaseSelf.
Proof. destruct b; reflexivity. Qed.

Lemma field_eqb_spec a b : reflect (a = b) (field_eqb a b).
Proof. destruct a, b; constructor; congruence. Qed.

(* the table agrees with the documentation: which option a setter sets, and the defaults *)
Lemma table_sets : forall b f, field_eqb f (builder_field b) = sets (builder_name b) (field_name f).
Proof. destruct b, f; reflexivity. Qed.
Lemma table_default : forall f, field_default f = option_default (field_name f).
Proof. destruct f; reflexivity. Qed.

Lemma apply_value o b v f : apply_builder o (b, v) f = if field_eqb f (builder_field b) then v else o f.
Proof. unfold apply_builder, set_field. cbn [fst snd]. rewrite base_self. reflexivity. Qed.

Lemma apply_sets o b v : apply_builder o (b, v) (builder_field b) = v.
Proof. rewrite apply_value. destruct (field_eqb_spec (builder_field b) (builder_field b)); congruence. Qed.

Lemma apply_preserves o b v f : f <> builder_field b -> apply_builder o (b, v) f = o f.
Proof. intros H. rewrite apply_value. destruct (field_eqb_spec f (builder_field b)); congruence. Qed.

Lemma apply_commute o b1 v1 b2 v2 : builder_field b1 <> builder_field b2 ->
  forall f, apply_builder (apply_builder o (b1, v1)) (b2, v2) f = apply_builder (apply_builder o (b2, v2)) (b1, v1) f.
Proof.
  intros H f. rewrite !apply_value.
  destruct (field_eqb_spec f (builder_field b1)), (field_eqb_spec f (builder_field b2)); congruence.
Qed.

Lemma apply_ext o o' c : (forall f, o f = o' f) -> forall f, apply_builder o c f = apply_builder o' c f.
Proof. intros H f. destruct c as [b v]. rewrite !apply_value, H. reflexivity. Qed.

Lemma fold_ext cs : forall o o', (forall f, o f = o' f) -> forall f, fold_left apply_builder cs o f = fold_left apply_builder cs o' f.
Proof. induction cs as [|c cs IH]; intros o o' H f; [apply H|]. cbn [fold_left]. apply IH. apply apply_ext, H. Qed.

Definition field_of (c : call) : opt_field := builder_field (fst c).

Lemma fold_perm cs cs' : Permutation cs cs' -> NoDup (map field_of cs) ->
  forall o f, fold_left apply_builder cs o f = fold_left apply_builder cs' o f.
Proof.
  induction 1 as [|x l l' _ IH|x y l|l l' l'' H1 IH1 H2 IH2]; intros Hn o f.
  - reflexivity.
  - cbn [fold_left]. apply IH. cbn [map] in Hn. inversion Hn; assumption.
  - cbn [fold_left]. apply fold_ext. destruct x as [bx vx], y as [b_y vy]. apply apply_commute.
    cbn [map] in Hn. inversion Hn as [|? ? Hin _]. intros E. apply Hin. left. unfold field_of. cbn [fst]. congruence.
  - rewrite IH1 by assumption. apply IH2. eapply Permutation_NoDup; [apply Permutation_map; exact H1|exact Hn].
Qed.

Lemma fold_spec cs : forall o a f, o f = a ->
  fold_left apply_builder cs o f = fold_left (fun acc c => if sets (fst c) (field_name f) then snd c else acc) (named cs) a.
Proof.
  induction cs as [|[b v] cs IH]; intros o a f H; [exact H|].
  cbn [fold_left named map fst snd]. apply IH. rewrite apply_value, table_sets, H. reflexivity.
Qed.

Lemma set_survives cs1 b v cs2 : (forall c, In c cs2 -> field_of c <> builder_field b) ->
  build (cs1 ++ (b, v) :: cs2) (builder_field b) = v.
Proof.
  intros H. unfold build. rewrite fold_left_app. cbn [fold_left].
  generalize (fold_left apply_builder cs1 default_options). intros o.
  assert (G : forall cs o, (forall c, In c cs -> field_of c <> builder_field b) -> fold_left apply_builder cs o (builder_field b) = o (builder_field b)).
  { clear. induction cs as [|[b' v'] cs IH]; intros o H; [reflexivity|]. cbn [fold_left]. rewrite IH by (intros c Hc; apply H; right; exact Hc).
    apply apply_preserves. intros E. apply (H (b', v')); [left; reflexivity|]. unfold field_of. cbn [fst]. congruence. }
  rewrite G by exact H. apply apply_sets.
Qed.
