(* Model/SubmitPaths.v against Spec/SubmitSpec.v; the C-ABI path from the C18 lemmas. *)
From Coq Require Import List String Lia.
From Rodbus Require Import Gen.FfiTables Gen.SubmitPaths Model.Ffi Model.SubmitPaths Spec.SubmitSpec Proofs.FfiProofs.
Import ListNotations.
Local Open Scope string_scope.

Definition expected (m : string) (env : sub_env) : result :=
  submit_spec result (RErr RRE_BadRequest) (RErr RRE_Shutdown) (valid env || negb (validated m)) (reaches_task env) (first_completion (stask env)).

(* callback_once, future_once: the generated table of each of the eight methods evaluated in the four
   environments (range valid or not, task alive or gone) *)
Theorem callback_once : forall m, In m request_methods -> forall env, cb_call m env = [Done (expected m env)].
Proof.
  intros m Hm [v s t]. unfold expected, submit_spec.
  repeat (destruct Hm as [<-|Hm]; [destruct v, s; reflexivity|]). destruct Hm.
Qed.

Theorem future_once : forall m, In m request_methods -> forall env, fut_call m env = Some (expected m env).
Proof.
  intros m Hm [v s t]. unfold expected, submit_spec.
  repeat (destruct Hm as [<-|Hm]; [destruct v, s; reflexivity|]). destruct Hm.
Qed.

Theorem methods_complete :
  map fst callback_methods = request_methods /\ map fst future_methods = request_methods /\ map fst client_calls = request_methods.
Proof. repeat split; reflexivity. Qed.

Theorem task_exits : exits_only_on_shutdown tcp_run_inner_exits = true /\ tcp_run_inner_exits <> [].
Proof. split; [reflexivity|discriminate]. Qed.

(* C ABI: at most one callback; exactly one when the call returned Ok; none only with an error code *)
Theorem ffi_completion : forall rq, In rq client_calls -> forall ft, In ft future_types -> forall env,
  null_args env = [] ->
  (failing_validation env = None \/ exists w, failing_validation env = Some w /\ In (Validate w) (snd rq)) ->
  c_abi_completion_ok (match fst (ffi_call ft rq env) with FPE_Ok => true | _ => false end) (List.length (snd (ffi_call ft rq env))).
Proof.
  intros rq Hrq ft Hft env Hnull [Hnone|[w [Hw Hin]]].
  - destruct (once_exactly rq (client_call_ok rq Hrq) ft (future_types_ok ft Hft) env (conj Hnull Hnone)) as [ev [Hev _]].
    rewrite Hev. unfold c_abi_completion_ok. cbn [List.length]. split; [lia|split; [reflexivity|intro H; discriminate H]].
  - destruct (param_error_no_callback rq (client_call_ok rq Hrq) ft env) as [_ H]. destruct (H Hnull w Hw Hin) as [Hc Hne].
    rewrite Hc. unfold c_abi_completion_ok. cbn [fst snd List.length]. split; [lia|split].
    + destruct (validation_error w); [contradiction|intro H0; discriminate H0..].
    + intros _. destruct (validation_error w); [contradiction|reflexivity..].
Qed.
