(* Proofs about the composed client front-end (Model/ClientFront.v). The task model (Model/ClientTask.v)
   is used through its step function; the facts needed about it (where request bytes can be written, how
   the phase becomes connected, which strategy call a step makes) are proved for each of its helper
   transitions (terminate, crash, loop_top, wait_for, ...) and lifted to take and step along the relations
   `takes` and `steps` of Proofs/ClientBase.v (the leaves of each, by name); the strategy is C14's (Proofs/RetryProofs.v), admission is C09's
   (Proofs/TlsProofs.v). *)
From Coq Require Import NArith List Lia.
From Rodbus Require Import Model.Retry Spec.RetrySpec Proofs.RetryProofs Spec.Lifecycle Gen.SessionErrors Proofs.C13Proofs Proofs.C13Live Model.ClientTask Model.RetryTask Proofs.ClientBase Spec.TlsSpec Gen.TlsVersions Gen.TlsModes Model.Tls Proofs.TlsProofs Model.ClientFront.
Import ListNotations.
Local Open Scope N_scope.

Lemma drop_no_traffic q : existsb is_traffic (drop_queue q) = false.
Proof.
  destruct (existsb is_traffic (drop_queue q)) eqn:E; [|reflexivity]. exfalso.
  apply existsb_exists in E. destruct E as (x & Hin & Hx). destruct (in_drop_queue _ _ Hin) as (id & ->). discriminate.
Qed.

Lemma existsb_cons_false {A} (f : A -> bool) x l : f x = false -> existsb f (x :: l) = existsb f l.
Proof. intros E. cbn. now rewrite E. Qed.

Section Task.
Variable cfg : ClientTask.config.
Notation step := (ClientTask.step cfg).

Lemma connect_true_effect s : ph s = PConnecting ->
  exists s', step s (EvConnect true) = (s', [OListen LConnected]) /\ ph s' = PIdle /\
    retry s' = {| dmin := dmin (retry s); dmax := dmax (retry s); cur := dmin (retry s) |}.
Proof.
  intros Hp. unfold ClientTask.step. rewrite Hp. unfold retry_call. cbn [Retry.step]. eexists. split; [reflexivity|]. split; reflexivity.
Qed.

Lemma connect_false_effect s : ph s = PConnecting -> 2 * cur (retry s) <= dur_max ->
  step s (EvConnect false) =
    (set_ph (set_retry s {| dmin := dmin (retry s); dmax := dmax (retry s); cur := N.min (2 * cur (retry s)) (dmax (retry s)) |})
            (PWaiting (now s + cur (retry s))),
     [OListen (LWaitFailed (cur (retry s)))]).
Proof.
  intros Hp Hov. unfold ClientTask.step. rewrite Hp. unfold wait_for, retry_call. cbn [Retry.step].
  destruct (N.ltb_spec dur_max (2 * cur (retry s))); [lia|]. reflexivity.
Qed.

(* down r: no connection is up after r, and r wrote no request byte and interpreted no reply. Everything the task
   does while no connection is up is of this kind, except the successful connect. *)
Definition down (r : state * list output) : Prop :=
  connected (ph (fst r)) = false /\ existsb is_traffic (snd r) = false.

Lemma terminate_down s : down (terminate s []).
Proof. split; [reflexivity|]. exact (drop_no_traffic _). Qed.

Lemma crash_down s : down (crash s).
Proof.
  split; [reflexivity|]. unfold crash. cbn [snd]. rewrite existsb_app, drop_no_traffic. destruct (ph s); reflexivity.
Qed.

Lemma start_connecting_down s : down (start_connecting s).
Proof. split; reflexivity. Qed.

Lemma loop_top_down s : down (loop_top s).
Proof. unfold loop_top. destruct (ClientTask.enabled s); split; reflexivity. Qed.

Lemma wait_for_down s l o : down (wait_for s l o []).
Proof.
  unfold wait_for. destruct (retry_call s o) as [[s1 d]|]; [split; reflexivity|].
  pose proof (crash_down s) as H. destruct (crash s). exact H.
Qed.

Lemma take_down s c : listens (ph s) = true -> connected (ph s) = false -> down (take s c).
Proof.
  intros Hl Hc. assert (Hi : ph s <> PIdle) by (intros E; rewrite E in Hc; discriminate).
  destruct (take_takes s c Hl) as [r Hd|r Hp|Hp|Hd|c s1 Hset Hch Hp He|c s1 Hset Hch Hp He Hw|c s1 Hset Hch Hp He Hp'|c s1 Hset Hch Hp He Hd Hn].
  - (* tk_fail_fast *) now split.
  - (* tk_transmit *) now destruct Hi.
  - (* tk_shutdown_idle *) now destruct Hi.
  - (* tk_shutdown_down *) apply terminate_down.
  - (* tk_set *) split; [cbn [fst]; now rewrite Hp|reflexivity].
  - (* tk_enabled *) apply start_connecting_down.
  - (* tk_disabled_idle *) now destruct Hi.
  - (* tk_disabled_down *) apply loop_top_down.
Qed.

Lemma step_unconnected s e : connected (ph s) = false -> down (step s e) \/ (e = EvConnect true /\ ph s = PConnecting).
Proof.
  intros Hc.
  assert (Hs : forall s' o, ph s' = ph s -> existsb is_traffic o = false -> down (s', o)).
  { intros s' o Hp Ho. split; [|exact Ho]. cbn [fst]. now rewrite Hp. }
  (* the leaves that start from a connected phase do not arise *)
  assert (Hx : forall p, ph s = p -> connected p = true -> False) by (intros p E Hp; rewrite E, Hp in Hc; discriminate Hc).
  destruct (step_steps cfg s e) as [e s' Hns Hq|c st Hh|c st Hh Hd|c st Hh Hn Hb|c st Hh Hn|c q Hl Hq|Hq Hcl Hp|Hq Hcl Hl Hd|s1 d Hp Er|Hp
                                   |e Hns Hn|e s0 r res Hf|e err se Hp He Hse|r tx u Hp|r tx u n Hp Hw|u Hp].
  - (* st_quiet *) left. apply Hs; [exact (quiet_ph _ _ Hq)|reflexivity].
  - (* st_nohandle *) left. now apply Hs.
  - (* st_dropped *) left. apply Hs; [reflexivity|apply drop_no_traffic].
  - (* st_queued *) left. now apply Hs.
  - (* st_blocked *) left. now apply Hs.
  - (* st_take *) left. now apply take_down.
  - (* st_closed_idle *) now destruct (Hx _ Hp).
  - (* st_closed_down *) left. apply terminate_down.
  - (* st_connected *) right. now split.
  - (* st_refused *) left. apply wait_for_down.
  - (* st_crash *) left. apply crash_down.
  - (* st_finish: a request is outstanding *)
    pose proof (finishes_inflight cfg _ _ _ _ _ Hf) as Hi. destruct (ph s); discriminate.
  - (* st_read_error_idle *) now destruct (Hx _ Hp).
  - (* st_written *) now destruct (Hx _ Hp).
  - (* st_released *) now destruct (Hx _ Hp).
  - (* st_wait_over *) left. apply loop_top_down.
Qed.

Lemma traffic_needs_connection s e : existsb is_traffic (snd (step s e)) = true -> connected (ph s) = true.
Proof.
  destruct (connected (ph s)) eqn:Ec; [reflexivity|]. intros Ht.
  destruct (step_unconnected s e Ec) as [[_ Hq]|[-> Hp]]; [congruence|].
  destruct (connect_true_effect s Hp) as (s' & E & _). rewrite E in Ht. discriminate Ht.
Qed.

Lemma connected_only_via_connect s e : e <> EvConnect true ->
  connected (ph (fst (step s e))) = true -> connected (ph s) = true.
Proof.
  destruct (connected (ph s)) eqn:Ec; [reflexivity|]. intros Hne Ht.
  destruct (step_unconnected s e Ec) as [[Hq _]|[-> _]]; [congruence|contradiction].
Qed.

Definition sop_of (l : cstate) : list op :=
  match l with LConnected => [Reset] | LWaitFailed _ => [Fail] | LWaitDisc _ => [Disc] | _ => [] end.
Definition sops (l : list cstate) : list op := flat_map sop_of l.
Definition wait_of (l : cstate) : list N := match l with LWaitFailed d | LWaitDisc d => [d] | _ => [] end.
Definition waits (l : list cstate) : list N := flat_map wait_of l.

(* at_most_one_call d r: r makes no strategy call and announces nothing the strategy is read off, or it makes one
   Fail / Disc call and announces the delay returned; d is the strategy before. Every helper transition of the task is
   of this kind, and so is every step except the successful connect, which alone calls Reset. *)
Definition at_most_one_call (d : doubling) (r : state * list output) : Prop :=
  let l := listens_of (snd r) in
  (sops l = [] /\ waits l = [] /\ retry (fst r) = d) \/
  (exists o w, o <> Reset /\ sops l = [o] /\ waits l = [w] /\ Retry.step d o = Some (retry (fst r), Some w)).

Lemma no_call d s' o : listens_of o = [] -> retry s' = d -> at_most_one_call d (s', o).
Proof. intros Hl Hr. left. cbn [fst snd]. rewrite Hl. now repeat split. Qed.

Lemma call_emit d pre r : listens_of pre = [] -> at_most_one_call d r -> at_most_one_call d (emit pre r).
Proof. intros Hp H. unfold at_most_one_call, emit in *. cbn [fst snd]. now rewrite listens_app, Hp. Qed.

Lemma crash_call s : at_most_one_call (retry s) (crash s).
Proof.
  apply no_call; [|reflexivity]. rewrite listens_app, listens_drop. destruct (ph s); reflexivity.
Qed.

Lemma terminate_call s pre : listens_of pre = [] -> at_most_one_call (retry s) (terminate s pre).
Proof. intros Hp. left. unfold terminate. cbn [fst snd]. rewrite !listens_app, Hp, listens_drop. now repeat split. Qed.

Lemma start_connecting_call s : at_most_one_call (retry s) (start_connecting s).
Proof. left. now repeat split. Qed.

Lemma loop_top_call s : at_most_one_call (retry s) (loop_top s).
Proof. unfold loop_top. destruct (ClientTask.enabled s); [apply start_connecting_call|left; now repeat split]. Qed.

(* Fail and Disc return a delay, which is the one announced *)
Lemma wait_for_call s l o pre : o <> Reset -> (forall d, sop_of (l d) = [o] /\ wait_of (l d) = [d]) -> listens_of pre = [] ->
  at_most_one_call (retry s) (wait_for s l o pre).
Proof.
  intros Ho Hl Hp. unfold wait_for, retry_call. destruct (Retry.step (retry s) o) as [[d' [w|]]|] eqn:E.
  - right. exists o, w. cbn [fst snd retry set_ph set_retry]. rewrite listens_app, Hp. destruct (Hl w) as [Hs Hw].
    change (listens_of [OListen (l w)]) with [l w]. unfold sops, waits. cbn [app flat_map]. rewrite Hs, Hw. now repeat split.
  - destruct o; [unfold Retry.step in E; destruct (_ <? _); discriminate E|discriminate E|contradiction].
  - rewrite let_emit. apply call_emit; [exact Hp|apply crash_call].
Qed.

Lemma end_session_call s e : at_most_one_call (retry s) (end_session s e).
Proof.
  unfold end_session. destruct e; try (apply wait_for_call; [discriminate|now split|reflexivity]).
  - rewrite (let_emit [OEnd SeDisabled]). apply call_emit; [reflexivity|apply loop_top_call].
  - now apply terminate_call.
Qed.

Lemma finish_call s r res : at_most_one_call (retry s) (finish s r res).
Proof.
  destruct (finish_finished s r res) as [t Hn|s0 e se Hch Hp He Hres Hse].
  - (* fi_alive *) now apply no_call.
  - (* fi_ended *) rewrite <- (same_chan_retry _ _ Hch). apply call_emit; [reflexivity|apply end_session_call].
Qed.

Lemma transmit_call s r : at_most_one_call (retry s) (transmit s r).
Proof.
  destruct (transmit_transmits s r) as [Hk|Hk Hw| |u].
  - (* tm_unformattable *) apply call_emit; [reflexivity|exact (finish_call (stamped s) r _)].
  - (* tm_write_failed *) apply call_emit; [reflexivity|exact (finish_call (set_wctl (stamped s) false 0) r _)].
  - (* tm_written *) now apply no_call.
  - (* tm_writing *) now apply no_call.
Qed.

Lemma take_call s c : listens (ph s) = true -> at_most_one_call (retry s) (take s c).
Proof.
  intros Hl.
  destruct (take_takes s c Hl) as [r Hd|r Hp|Hp|Hd|c s1 Hset Hch Hp He|c s1 Hset Hch Hp He Hw|c s1 Hset Hch Hp He Hp'|c s1 Hset Hch Hp He Hd Hn];
    try rewrite <- (same_chan_retry _ _ Hch).
  - (* tk_fail_fast *) now apply no_call.
  - (* tk_transmit *) apply transmit_call.
  - (* tk_shutdown_idle *) apply end_session_call.
  - (* tk_shutdown_down *) now apply terminate_call.
  - (* tk_set *) now apply no_call.
  - (* tk_enabled *) apply start_connecting_call.
  - (* tk_disabled_idle *) apply end_session_call.
  - (* tk_disabled_down *) apply loop_top_call.
Qed.

Lemma step_call s e : at_most_one_call (retry s) (step s e) \/ (e = EvConnect true /\ ph s = PConnecting).
Proof.
  destruct (step_steps cfg s e) as [e s' Hns Hq|c st Hh|c st Hh Hd|c st Hh Hn Hb|c st Hh Hn|c q Hl Hq|Hq Hcl Hp|Hq Hcl Hl Hd|s1 d Hp Er|Hp
                                   |e Hns Hn|e s0 r res Hf|e err se Hp He Hse|r tx u Hp|r tx u n Hp Hw|u Hp].
  - (* st_quiet *) left. apply no_call; [reflexivity|exact (quiet_retry _ _ Hq)].
  - (* st_nohandle *) left. now apply no_call.
  - (* st_dropped *) left. apply no_call; [apply listens_drop|reflexivity].
  - (* st_queued *) left. now apply no_call.
  - (* st_blocked *) left. now apply no_call.
  - (* st_take *) left. now apply (take_call (popped s q)).
  - (* st_closed_idle *) left. apply end_session_call.
  - (* st_closed_down *) left. now apply terminate_call.
  - (* st_connected *) right. now split.
  - (* st_refused *) left. apply wait_for_call; [discriminate|now split|reflexivity].
  - (* st_crash *) left. apply crash_call.
  - (* st_finish *) left. destruct (finishes_frame cfg _ _ _ _ _ Hf) as (_ & Hch & _). rewrite <- (same_chan_retry _ _ Hch). apply finish_call.
  - (* st_read_error_idle *) left. apply end_session_call.
  - (* st_written *) left. now apply no_call.
  - (* st_released *) left. now apply no_call.
  - (* st_wait_over *) left. apply loop_top_call.
Qed.

Lemma in_listens x o : In (OListen x) o -> In x (listens_of o).
Proof. intros H. apply in_flat_map. exists (OListen x). split; [exact H|now left]. Qed.

Lemma connected_announced_iff s e :
  In (OListen LConnected) (snd (step s e)) <-> (e = EvConnect true /\ ph s = PConnecting).
Proof.
  split.
  - intros Hin. destruct (step_call s e) as [H|H]; [exfalso|exact H].
    assert (Hr : In Reset (sops (listens_of (snd (step s e))))).
    { apply in_flat_map. exists LConnected. split; [now apply in_listens|now left]. }
    destruct H as [(E & _)|(o & w & Ho & E & _)]; rewrite E in Hr; [destruct Hr|]. destruct Hr as [->|[]]. now apply Ho.
  - intros [-> Hp]. destruct (connect_true_effect s Hp) as (s' & E & _). rewrite E. now left.
Qed.

Lemma step_strategy s e :
  let s' := fst (step s e) in let l := listens_of (snd (step s e)) in
  (sops l = [] /\ waits l = [] /\ retry s' = retry s) \/
  (exists o v, sops l = [o] /\ Retry.step (retry s) o = Some (retry s', v) /\
     waits l = match v with Some d => [d] | None => [] end).
Proof.
  cbv zeta. destruct (step_call s e) as [[H|(o & w & _ & Es & Ew & E)]|[-> Hp]].
  - left. exact H.
  - right. now exists o, (Some w).
  - right. destruct (connect_true_effect s Hp) as (s' & E & _ & Er). rewrite E. exists Reset, None. cbn [fst snd]. now rewrite Er.
Qed.
End Task.

Section Front.
Variable cfg : ClientTask.config.
Variable tr : ctransport.
Notation cstep := (cstep cfg tr).
Notation crun := (crun cfg tr).
Notation step := (ClientTask.step cfg).

Lemma handshake_ok_spec k : handshake_ok tr k = true <->
  exists min mode ng p v, tr = CTls min mode ng /\ k = SrvTls p /\
    expected (endpoint_of ClientSide min mode false ng) p = Established v None.
Proof.
  unfold handshake_ok. split.
  - destruct tr as [|min mode ng]; [discriminate|]. destruct k as [p| |]; try discriminate.
    rewrite admission. pose proof (expected_allowed (endpoint_of ClientSide min mode false ng) p) as Ha.
    destruct (expected _ p) as [v role|] eqn:E; [|discriminate]. intros _. destruct Ha as (_ & _ & _ & Hr).
    change (role = None) in Hr. subst role. now exists min, mode, ng, p, v.
  - intros (min & mode & ng & p & v & -> & -> & E). rewrite admission, E. reflexivity.
Qed.

Lemma connect_or_not ev : (exists b, ev = EvConnect b) \/ (forall b, ev <> EvConnect b).
Proof. destruct ev; try (right; intros; discriminate). left; eauto. Qed.

Lemma cstep_CE f ev : (forall b, ev <> EvConnect b) ->
  cstep f (CE ev) =
    (let '(s', o) := step (core f) ev in
     ({| core := s'; hs := match hs f, ph s' with Some k, PConnecting => Some k | _, _ => None end; last_server := last_server f |}, o)).
Proof.
  intros Hne. unfold ClientFront.cstep. destruct ev; try reflexivity. exfalso. now apply (Hne ok).
Qed.

Lemma cstep_CE_connect f b : cstep f (CE (EvConnect b)) = (f, []).
Proof. reflexivity. Qed.

Definition finv (f : cfront) : Prop :=
  (forall k, hs f = Some k -> ph (core f) = PConnecting /\ tr <> CPlain) /\
  (connected (ph (core f)) = true -> hs f = None /\ admitted_server tr (last_server f)).

Lemma admitted_of_ok k : handshake_ok tr k = true -> admitted_server tr (Some k).
Proof.
  intros Hk. apply handshake_ok_spec in Hk. destruct Hk as (min & mode & ng & p & v & -> & -> & E).
  unfold admitted_server. now exists p, v.
Qed.

(* The composed step calls the task's step in two ways: on an event of the task model, keeping the handshake pending
   while the task stays in its Connecting phase; and with the outcome b of the connection attempt once it is known. *)
Lemma finv_task f ev : finv f -> ev <> EvConnect true ->
  finv (fst (let '(s', o) := step (core f) ev in
             ({| core := s'; hs := match hs f, ph s' with Some k, PConnecting => Some k | _, _ => None end;
                 last_server := last_server f |}, o))).
Proof.
  intros [I1 I2] Hne. pose proof (connected_only_via_connect cfg (core f) ev Hne) as Hc.
  destruct (step (core f) ev) as [s' o]. cbn [fst] in Hc. split; cbn [fst core hs last_server].
  - intros k E. destruct (hs f) as [k0|]; [|discriminate E]. destruct (ph s'); try discriminate E.
    split; [reflexivity|exact (proj2 (I1 k0 eq_refl))].
  - intros H. split; [|exact (proj2 (I2 (Hc H)))]. destruct (hs f); [|reflexivity]. destruct (ph s'); try reflexivity; discriminate H.
Qed.

Lemma finv_connect f b ls : ph (core f) = PConnecting -> (b = true -> admitted_server tr ls) ->
  finv (fst (let '(s', o) := step (core f) (EvConnect b) in ({| core := s'; hs := None; last_server := ls |}, o))).
Proof.
  intros Hp Ha. pose proof (connected_only_via_connect cfg (core f) (EvConnect b)) as Hc.
  destruct (step (core f) (EvConnect b)) as [s' o]. cbn [fst] in Hc. split; cbn [fst core hs last_server]; [discriminate|].
  intros H. split; [reflexivity|]. destruct b; [now apply Ha|]. rewrite Hp in Hc. discriminate (Hc ltac:(discriminate) H).
Qed.

Lemma cstep_inv f e : finv f -> finv (fst (cstep f e)).
Proof.
  intros Hf. pose proof Hf as [I1 _]. unfold ClientFront.cstep. destruct e as [ev|ok k|].
  - destruct ev; try (apply finv_task; [exact Hf|discriminate]). exact Hf.
  - destruct (hs f) eqn:Eh; [exact Hf|]. destruct (ph (core f)) eqn:Ep; try exact Hf.
    destruct ok; [destruct tr eqn:Etr|]; try (apply finv_connect; [exact Ep|]).
    + intros _. unfold admitted_server. rewrite Etr. exact I.
    + split; cbn [fst core hs]; [intros k1 _; split; [exact Ep|rewrite Etr; discriminate]|]. rewrite Ep. discriminate.
    + discriminate.
  - destruct (hs f) as [k|] eqn:Eh; [|exact Hf]. destruct (I1 k eq_refl) as [Hp _].
    destruct k as [p| |]; [| |exact Hf];
      (destruct (handshake_ok tr _) eqn:Ek; apply finv_connect; [exact Hp|intros _; now apply admitted_of_ok|exact Hp|discriminate]).
Qed.

Lemma cinit_inv h mt mn mx : finv (cinit h mt mn mx).
Proof. split; [intros k E; discriminate|intros Hc; discriminate]. Qed.

Lemma crun_inv es : forall f, finv f -> finv (fst (crun f es)).
Proof.
  induction es as [|e r IH]; intros f Hf; [exact Hf|]. cbn [ClientFront.crun].
  pose proof (cstep_inv f e Hf) as H1. destruct (cstep f e) as [f1 o1]. cbn [fst] in H1.
  specialize (IH f1 H1). destruct (crun f1 r) as [f2 o2]. exact IH.
Qed.

(* The composed model refines the task model: `fed f e` is the event of the task model that the composed step hands to the
   core (none: the core does not move and nothing is put out). EvConnect b is fed exactly when the outcome of the
   connection attempt is known: the TCP connect failed or, for a plain client, succeeded; the handshake resolved. *)
Definition fed (f : cfront) (e : cevent) : option event :=
  match e with
  | CE (EvConnect _) => None
  | CE ev => Some ev
  | CTcp ok k =>
      match hs f, ph (core f) with
      | None, PConnecting => if ok then match tr with CPlain => Some (EvConnect true) | CTls _ _ _ => None end else Some (EvConnect false)
      | _, _ => None
      end
  | CHandshake => match hs f with Some SrvStalls | None => None | Some k => Some (EvConnect (handshake_ok tr k)) end
  end.

Theorem cstep_fed f e :
  (core (fst (cstep f e)), snd (cstep f e)) = match fed f e with Some ev => step (core f) ev | None => (core f, []) end.
Proof.
  assert (Hs : forall ev (g : state -> cfront), (forall s, core (g s) = s) ->
            (let r := let '(s', o) := step (core f) ev in (g s', o) in (core (fst r), snd r)) = step (core f) ev).
  { intros ev g Hg. destruct (step (core f) ev). cbn. now rewrite Hg. }
  unfold ClientFront.cstep, fed. destruct e as [ev|ok k|].
  - destruct ev; try (now apply Hs). reflexivity.
  - destruct (hs f); [reflexivity|]. destruct (ph (core f)); try reflexivity.
    destruct ok; [destruct tr; [|reflexivity]|]; now apply Hs.
  - destruct (hs f) as [[p| |]|]; try reflexivity; destruct (handshake_ok tr _); now apply Hs.
Qed.

Lemma cstep_is_step f e : (exists ev, (core (fst (cstep f e)), snd (cstep f e)) = step (core f) ev) \/
                          (core (fst (cstep f e)) = core f /\ snd (cstep f e) = []).
Proof. pose proof (cstep_fed f e) as H. destruct (fed f e) as [ev|]; [left; now exists ev|right; now injection H]. Qed.

Lemma traffic_only_when_admitted f e : finv f -> existsb is_traffic (snd (cstep f e)) = true ->
  connected (ph (core f)) = true /\ hs f = None /\ admitted_server tr (last_server f).
Proof.
  intros Hf Ht. destruct (cstep_is_step f e) as [(ev & E)|[_ E]]; [|rewrite E in Ht; discriminate].
  assert (Hc : connected (ph (core f)) = true).
  { apply (traffic_needs_connection cfg (core f) ev). rewrite <- E. exact Ht. }
  destruct Hf as [_ I2]. destruct (I2 Hc). auto.
Qed.

Lemma no_traffic_while_handshaking f e k : finv f -> hs f = Some k -> existsb is_traffic (snd (cstep f e)) = false.
Proof.
  intros Hf Hk. destruct (existsb is_traffic (snd (cstep f e))) eqn:Et; [|reflexivity].
  destruct (traffic_only_when_admitted f e Hf Et) as (_ & Hn & _). congruence.
Qed.

Lemma failed_handshake_is_failed_connect f k : hs f = Some k -> k <> SrvStalls -> handshake_ok tr k = false ->
  cstep f CHandshake =
    (let '(s', o) := step (core f) (EvConnect false) in ({| core := s'; hs := None; last_server := last_server f |}, o)).
Proof.
  intros Hk Hns Hok. unfold ClientFront.cstep. rewrite Hk. destruct k; [| |contradiction]; rewrite Hok; reflexivity.
Qed.

Lemma failed_handshake_waits_next_delay f k : finv f -> hs f = Some k -> k <> SrvStalls -> handshake_ok tr k = false ->
  2 * cur (retry (core f)) <= dur_max ->
  snd (cstep f CHandshake) = [OListen (LWaitFailed (cur (retry (core f))))] /\
  retry (core (fst (cstep f CHandshake))) =
    {| dmin := dmin (retry (core f)); dmax := dmax (retry (core f)); cur := N.min (2 * cur (retry (core f))) (dmax (retry (core f))) |}.
Proof.
  intros [I1 _] Hk Hns Hok Hov. destruct (I1 k Hk) as [Hp _].
  rewrite (failed_handshake_is_failed_connect f k Hk Hns Hok), (connect_false_effect cfg (core f) Hp Hov). split; reflexivity.
Qed.

Lemma connected_front_iff f e : finv f ->
  (In (OListen LConnected) (snd (cstep f e)) <->
   ph (core f) = PConnecting /\
   ((tr = CPlain /\ hs f = None /\ exists k, e = CTcp true k) \/
    (exists k, hs f = Some k /\ e = CHandshake /\ handshake_ok tr k = true))).
Proof.
  intros _. transitivity (fed f e = Some (EvConnect true) /\ ph (core f) = PConnecting).
  { pose proof (cstep_fed f e) as H. destruct (fed f e) as [ev|]; apply (f_equal snd) in H; cbn [snd] in H; rewrite H.
    - rewrite (connected_announced_iff cfg). split; [now intros [-> ?]|intros [[= ->] ?]; now split].
    - split; [intros []|intros [E _]; discriminate E]. }
  unfold fed. split.
  - (* EvConnect true is fed: a plain client's TCP connect succeeded, or the handshake did *)
    intros [E Hp]. split; [exact Hp|]. rewrite Hp in E. destruct e as [ev|ok k|].
    + destruct ev; discriminate E.
    + destruct (hs f) eqn:Eh; [discriminate E|]. destruct ok; [|discriminate E]. destruct tr; [|discriminate E]. left. eauto.
    + destruct (hs f) as [[p| |]|]; try discriminate E; injection E as E; right; eauto.
  - intros (Hp & [(Etr & Eh & k & ->)|(k & Eh & -> & Ek)]); (split; [|exact Hp]); rewrite Eh.
    + now rewrite Hp, Etr.
    + rewrite Ek. destruct k; try reflexivity. unfold handshake_ok in Ek. destruct tr; discriminate Ek.
Qed.

End Front.

Definition kafter (k : nat) (ops : list op) : nat := fold_left after ops k.

Lemma spec_app mn mx a : forall k b, spec mn mx k (a ++ b) = spec mn mx k a ++ spec mn mx (kafter k a) b.
Proof.
  induction a as [|o a IH]; intros k b; [reflexivity|]. destruct o; cbn [app spec]; now rewrite IH.
Qed.

Lemma kafter_app a : forall k b, kafter k (a ++ b) = kafter (kafter k a) b.
Proof. intros k b. apply fold_left_app. Qed.

Lemma sops_app a b : sops (a ++ b) = sops a ++ sops b.
Proof. unfold sops. apply flat_map_app. Qed.
Lemma waits_app a b : waits (a ++ b) = waits a ++ waits b.
Proof. unfold waits. apply flat_map_app. Qed.

Section Retry.
Variable mn mx : N.
Hypothesis Hle : mn <= mx.
Hypothesis Hov : 2 * mx <= dur_max.

Lemma step_spec cfg s e k : tracks mn mx (retry s) k ->
  let l := listens_of (snd (ClientTask.step cfg s e)) in
  waits l = somes (spec mn mx k (sops l)) /\ tracks mn mx (retry (fst (ClientTask.step cfg s e))) (kafter k (sops l)).
Proof.
  intros Hi. cbv zeta. destruct (step_strategy cfg s e) as [(E1 & E2 & E3)|(o & v & E1 & E2 & E3)].
  - rewrite E1, E2, E3. split; [reflexivity|exact Hi].
  - destruct (step_refines mn mx Hle Hov o _ k Hi) as (d1 & v1 & E & Hi' & Hv). rewrite E in E2. injection E2 as <- <-.
    rewrite E1, E3, Hv. split; [destruct v1; reflexivity|exact Hi'].
Qed.

Lemma cstep_spec cfg tr f e k : tracks mn mx (retry (core f)) k ->
  let l := listens_of (snd (cstep cfg tr f e)) in
  waits l = somes (spec mn mx k (sops l)) /\ tracks mn mx (retry (core (fst (cstep cfg tr f e)))) (kafter k (sops l)).
Proof.
  intros Hi. cbv zeta. destruct (cstep_is_step cfg tr f e) as [(ev & E)|[E1 E2]].
  - pose proof (step_spec cfg (core f) ev k Hi) as Hs. cbv zeta in Hs. rewrite <- E in Hs. exact Hs.
  - rewrite E1, E2. split; [reflexivity|exact Hi].
Qed.

Lemma crun_spec cfg tr es : forall f k, tracks mn mx (retry (core f)) k ->
  let l := listens_of (snd (crun cfg tr f es)) in
  waits l = somes (spec mn mx k (sops l)) /\ tracks mn mx (retry (core (fst (crun cfg tr f es)))) (kafter k (sops l)).
Proof.
  induction es as [|e r IH]; intros f k Hi; cbv zeta; cbn [ClientFront.crun]; [split; [reflexivity|exact Hi]|].
  pose proof (cstep_spec cfg tr f e k Hi) as H1. cbv zeta in H1.
  destruct (cstep cfg tr f e) as [f1 o1]. cbn [fst snd] in H1. destruct H1 as [W1 I1].
  specialize (IH f1 _ I1). cbv zeta in IH. destruct (crun cfg tr f1 r) as [f2 o2]. cbn [fst snd] in *. destruct IH as [W2 I2].
  rewrite listens_app, waits_app, sops_app, spec_app, kafter_app, W1, W2. split; [symmetry; apply flat_map_app|exact I2].
Qed.

Lemma front_retry cfg tr h mt es :
  let l := listens_of (snd (crun cfg tr (cinit h mt mn mx) es)) in
  waits l = somes (spec mn mx 0 (sops l)).
Proof.
  cbv zeta. apply (crun_spec cfg tr es (cinit h mt mn mx) 0%nat). exact (create_tracks mn mx Hle).
Qed.
End Retry.

Section Raced.
Variable cfg : ClientTask.config.
Variable tr : ctransport.

Lemma parked_is_connecting f ev : (forall b, ev <> EvConnect b) ->
  (core (fst (cstep cfg tr f (CE ev))), snd (cstep cfg tr f (CE ev))) = ClientTask.step cfg (core f) ev.
Proof. intros Hne. rewrite (cstep_CE cfg tr f ev Hne). destruct (ClientTask.step cfg (core f) ev); reflexivity. Qed.

Lemma shutdown_during_handshake f k q : finv tr f -> hs f = Some k -> queue (core f) = CShutdown :: q ->
  let f' := fst (cstep cfg tr f (CE EvRecv)) in
  ph (core f') = PDone /\ hs f' = None /\ listens_of (snd (cstep cfg tr f (CE EvRecv))) = [LShutdown].
Proof.
  intros [I1 _] Hk Hq. destruct (I1 k Hk) as [Hp _]. cbv zeta.
  assert (Hl : listens (ph (core f)) = true) by (rewrite Hp; reflexivity).
  destruct (proj1 (c13_terminates cfg (core f) Hl) q Hq) as [Hd Hs].
  rewrite (cstep_CE cfg tr f EvRecv) by (intros b; discriminate).
  destruct (ClientTask.step cfg (core f) EvRecv) as [s' o]. cbn [fst snd core hs] in *. rewrite Hd.
  split; [reflexivity|]. split; [destruct (hs f); reflexivity|exact Hs].
Qed.

Lemma request_during_handshake_fails_fast f k r q : finv tr f -> hs f = Some k -> queue (core f) = CReq r :: q ->
  snd (cstep cfg tr f (CE EvRecv)) = [OComplete (rq_id r) (RErr ReNoConnection)] /\ hs (fst (cstep cfg tr f (CE EvRecv))) = Some k.
Proof.
  intros [I1 _] Hk Hq. destruct (I1 k Hk) as [Hp _].
  assert (Hl : listens (ph (core f)) = true) by (rewrite Hp; reflexivity).
  assert (Hc : connected (ph (core f)) = false) by (rewrite Hp; reflexivity).
  pose proof (c13_fail_fast cfg (core f) r q Hl Hc Hq) as Hs.
  rewrite (cstep_CE cfg tr f EvRecv) by (intros b; discriminate). rewrite Hs. cbn [fst snd core hs ph set_chan]. rewrite Hk, Hp. split; reflexivity.
Qed.

Lemma crun_internal es : forallb internal es = true -> forall f,
  core (fst (crun cfg tr f (map CE es))) = fst (ClientTask.run cfg (core f) es).
Proof.
  induction es as [|e r IH]; intros Hi f; [reflexivity|]. cbn [forallb] in Hi. apply andb_prop in Hi. destruct Hi as [He Hr].
  cbn [map ClientFront.crun ClientTask.run].
  assert (Hne : forall b, e <> EvConnect b) by (intros b E; subst; discriminate He).
  pose proof (parked_is_connecting f e Hne) as Hp.
  destruct (cstep cfg tr f (CE e)) as [f1 o1]. cbn [fst snd] in Hp.
  destruct (ClientTask.step cfg (core f) e) as [s1 p1]. inversion Hp; subst.
  specialize (IH Hr f1). destruct (crun cfg tr f1 (map CE r)) as [f2 o2]. cbn [fst] in *.
  destruct (ClientTask.run cfg (core f1) r) as [s2 p2]. cbn [fst] in *. exact IH.
Qed.

Lemma front_shutdown_from_every_state f :
  (queue (core f) = [] -> blocked (core f) = []) -> In CShutdown (queue (core f) ++ blocked (core f)) -> ph (core f) <> PDone ->
  exists es, forallb internal es = true /\ ph (core (fst (crun cfg tr f (map CE es)))) = PDone.
Proof.
  intros H1 H2 H3. destruct (shutdown_from_every_state cfg (core f) H1 H2 H3) as (es & Hi & Hd).
  exists es. split; [exact Hi|]. now rewrite (crun_internal es Hi f).
Qed.
End Raced.

Lemma handshake_raced_witness :
  let cfg := {| cfg_cap := 4%nat; cfg_res := 1 |} in
  let tr := CTls V1_2 AuthorityBased true in
  let '(f, o) := crun cfg tr (cinit 1 None 20 70)
                   [CE (EvSubmit CEnable SFuture); CE EvRecv; CTcp true SrvStalls; CE (EvSubmit CShutdown SFuture); CE EvRecv] in
  hs f = None /\ ph (core f) = PDone /\ listens_of o = [LConnecting; LShutdown].
Proof. vm_compute. repeat split; reflexivity. Qed.
