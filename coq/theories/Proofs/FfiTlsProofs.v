(* Model/FfiTls.v against Spec/FfiSpec.tls_client_spec / tls_server_spec. *)
From Coq Require Import List String Bool.
From Rodbus Require Import Gen.FfiTables Spec.FfiSpec Model.FfiTls.
Import ListNotations.
Local Open Scope string_scope.

Lemma tls_min_same mn : tls_min_spec (name_ffi_min_tls_version mn) = Some (name_rust_min_tls_version (min_tls_from_ffi mn)).
Proof. now destruct mn. Qed.

(* The rows are looked up by evaluation (`lazy`), once per certificate mode. The tests on the C strings
   (`String.eqb dns "*"`, `String.eqb pw ""`) and the minimum version are generalised to variables first: they stay
   abstract, so that the evaluation does not unfold String.eqb on an unknown string. *)
Theorem tls_client_call_is_spec : forall c, ffi_tls_client_call c = tls_client_spec (client_in c).
Proof.
  intros [mode dns wc pw mn]. unfold ffi_tls_client_call, tls_client_spec, client_in, opt_of_string, eval_opt, client_conj.
  cbn [cc_mode cc_dns_name cc_wildcard cc_password cc_min ti_mode ti_dns_name ti_wildcard ti_password ti_min].
  rewrite tls_min_same. generalize (name_rust_min_tls_version (min_tls_from_ffi mn)), (String.eqb dns "*"), (String.eqb pw "").
  intros m b1 b2. destruct mode; lazy; destruct wc, b1, b2; reflexivity.
Qed.

Theorem tls_server_call_is_spec : forall c, ffi_tls_server_call c = tls_server_spec (server_in c).
Proof.
  intros [mode pw mn]. unfold ffi_tls_server_call, tls_server_spec, server_in, opt_of_string, eval_opt.
  cbn [cs_mode cs_password cs_min tsi_mode tsi_password tsi_min].
  rewrite tls_min_same. generalize (name_rust_min_tls_version (min_tls_from_ffi mn)), (String.eqb pw "").
  intros m b. destruct mode; lazy; destruct b; reflexivity.
Qed.

Theorem tls_client_spec_total : forall c, exists call, tls_client_spec (client_in c) = Some call.
Proof. intros [[] dns wc pw []]; eexists; reflexivity. Qed.

Theorem tls_server_spec_total : forall c, exists call, tls_server_spec (server_in c) = Some call.
Proof. intros [[] pw []]; eexists; reflexivity. Qed.

Theorem tls_client_create_is_rust : forall R c, exists call,
  tls_client_spec (client_in c) = Some call /\ ffi_tls_client_create R c = Some (ffi_result (R call)).
Proof.
  intros R c. destruct (tls_client_spec_total c) as [call H]. exists call. split; [exact H|].
  unfold ffi_tls_client_create. now rewrite tls_client_call_is_spec, H.
Qed.

Theorem tls_server_config_is_rust : forall R c, exists call,
  tls_server_spec (server_in c) = Some call /\ ffi_tls_server_config R c = Some (ffi_result (R call)).
Proof.
  intros R c. destruct (tls_server_spec_total c) as [call H]. exists call. split; [exact H|].
  unfold ffi_tls_server_config. now rewrite tls_server_call_is_spec, H.
Qed.

Theorem tls_result_same_named :
  ffi_result None = FPE_Ok /\ forall e, param_error_name_ok (name_rust_tls_error e) (name_ffi_param_error (ffi_result (Some e))) = true /\ ffi_result (Some e) <> FPE_Ok.
Proof. split; [reflexivity|]. intros []; split; try reflexivity; discriminate. Qed.

(* dns_name "*" without the flag is an ordinary expected name: the call is full_pki(Some "*", ..) *)
Theorem tls_wildcard_needs_flag : forall R dns wc pw mn,
  ffi_tls_client_create R {| cc_mode := FCM_AuthorityBased; cc_dns_name := dns; cc_wildcard := wc; cc_password := pw; cc_min := mn |}
  = Some (ffi_result (R {| tc_ctor := "full_pki"; tc_name := if wc && String.eqb dns "*" then None else Some dns; tc_files := tls_files;
                           tc_password := opt_of_string pw; tc_min := name_rust_min_tls_version (min_tls_from_ffi mn); tc_mode := None |})).
Proof.
  intros R dns wc pw mn. unfold ffi_tls_client_create. rewrite tls_client_call_is_spec.
  destruct mn; reflexivity.
Qed.
