(* C19 atomicity over the interleaving model of Model/Atomic.v: the database is always what the committed
   transactions plus the lock holder's progress make it, so a finished request has seen the state
   after a prefix of the commit order. *)
From Coq Require Import NArith List Lia Arith.
From Rodbus Require Import Spec.AtomicSpec Model.Atomic.
Import ListNotations.

Lemma upd_cons : forall a ts i t, upd_thread (a :: ts) (S i) t = a :: upd_thread ts i t.
Proof. reflexivity. Qed.
Lemma upd_zero : forall a ts t, upd_thread (a :: ts) 0 t = t :: ts.
Proof. reflexivity. Qed.

Lemma nth_error_upd_same : forall ts i t, i < length ts -> nth_error (upd_thread ts i t) i = Some t.
Proof.
  induction ts as [|a ts IH]; intros i t H; cbn [length] in H; [lia|].
  destruct i as [|i]; [reflexivity|].
  rewrite upd_cons. cbn [nth_error]. apply IH. lia.
Qed.

Lemma nth_error_upd_other : forall ts i j t, j <> i -> i < length ts ->
  nth_error (upd_thread ts i t) j = nth_error ts j.
Proof.
  induction ts as [|a ts IH]; intros i j t Hne H; cbn [length] in H; [lia|].
  destruct i as [|i].
  - rewrite upd_zero. destruct j as [|j]; [congruence|reflexivity].
  - rewrite upd_cons. destruct j as [|j]; [reflexivity|].
    cbn [nth_error]. apply IH; lia.
Qed.

Lemma length_upd : forall ts i t, i < length ts -> length (upd_thread ts i t) = length ts.
Proof.
  induction ts as [|a ts IH]; intros i t H; cbn [length] in H; [lia|].
  destruct i as [|i]; [reflexivity|].
  rewrite upd_cons. cbn [length]. rewrite IH; lia.
Qed.

Lemma nth_error_lt : forall (A : Type) (l : list A) i x, nth_error l i = Some x -> i < length l.
Proof. intros A l i x H. apply nth_error_Some. congruence. Qed.

Lemma firstn_S_nth : forall (A : Type) (l : list A) n x,
  nth_error l n = Some x -> firstn (S n) l = firstn n l ++ [x].
Proof.
  induction l as [|a l IH]; intros n x H.
  - destruct n; discriminate.
  - destruct n as [|n]; cbn [nth_error] in H.
    + injection H as ->. reflexivity.
    + change (firstn (S (S n)) (a :: l)) with (a :: firstn (S n) l).
      rewrite (IH _ _ H). reflexivity.
Qed.

Lemma firstn_nth_none : forall (A : Type) (l : list A) n,
  nth_error l n = None -> firstn n l = l.
Proof. intros A l n H. apply firstn_all2. apply nth_error_None. exact H. Qed.

Lemma apply_txn_snoc : forall d ws a v, apply_txn d (ws ++ [(a, v)]) = set (apply_txn d ws) a v.
Proof. intros. unfold apply_txn. rewrite fold_left_app. reflexivity. Qed.

Lemma apply_all_snoc : forall d l ws, apply_all d (l ++ [ws]) = apply_txn (apply_all d l) ws.
Proof. intros. unfold apply_all. rewrite fold_left_app. reflexivity. Qed.

(* the holder's partial progress, relative to the committed state *)
Definition holder_ok (d0 : db) (w : world) (t : thread) : Prop :=
  match tjob t with
  | Txn ws => wdb w = apply_txn (apply_all d0 (committed w)) (firstn (pc t) ws)
  | Req addrs => wdb w = apply_all d0 (committed w) /\
                 obs t = map (lookup (apply_all d0 (committed w))) (firstn (pc t) addrs)
  end.

(* the database is what the committed transactions plus the holder's progress make it *)
Definition inv_lock (d0 : db) (w : world) : Prop :=
  match owner w with
  | None => wdb w = apply_all d0 (committed w) /\
            (forall j t, nth_error (threads w) j = Some t -> holding t = false)
  | Some i => exists t, nth_error (threads w) i = Some t /\ holding t = true /\ finished t = false /\
              (forall j t', j <> i -> nth_error (threads w) j = Some t' -> holding t' = false) /\
              snap t = length (committed w) /\ holder_ok d0 w t
  end.

(* every finished request observed exactly the state after the transactions committed before it
   took the lock *)
Definition inv_fin (d0 : db) (w : world) : Prop :=
  forall j t addrs, nth_error (threads w) j = Some t -> finished t = true -> tjob t = Req addrs ->
    snap t <= length (committed w) /\
    obs t = map (lookup (apply_all d0 (firstn (snap t) (committed w)))) addrs.

Definition atomic_inv (d0 : db) (w : world) : Prop := inv_lock d0 w /\ inv_fin d0 w.

Lemma inv_init : forall d0 jobs, atomic_inv d0 (init d0 jobs).
Proof.
  intros d0 jobs. split.
  - unfold inv_lock. cbn [init owner wdb committed threads]. split; [reflexivity|].
    intros j t H. apply nth_error_In in H. apply in_map_iff in H.
    destruct H as [x [<- _]]. reflexivity.
  - intros j t addrs H Hf. cbn [init threads] in H.
    apply nth_error_In in H. apply in_map_iff in H.
    destruct H as [x [<- _]]. discriminate.
Qed.

(* a thread that holds is the owner *)
Lemma holder_is_owner : forall d0 w i t, inv_lock d0 w ->
  nth_error (threads w) i = Some t -> holding t = true -> owner w = Some i.
Proof.
  intros d0 w i t HL Ei Eh. unfold inv_lock in HL.
  destruct (owner w) as [k|].
  - destruct HL as [t0 [_ [_ [_ [Hoth _]]]]].
    destruct (Nat.eq_dec i k) as [->|Hne]; [reflexivity|].
    rewrite (Hoth _ _ Hne Ei) in Eh. discriminate.
  - destruct HL as [_ Hall]. rewrite (Hall _ _ Ei) in Eh. discriminate.
Qed.

(* replacing thread i while the commit order only grows keeps inv_fin, if the new thread satisfies it *)
Lemma inv_fin_upd : forall d0 w w' i t' l,
  inv_fin d0 w -> i < length (threads w) ->
  threads w' = upd_thread (threads w) i t' -> committed w' = committed w ++ l ->
  (finished t' = true -> forall addrs, tjob t' = Req addrs ->
     snap t' <= length (committed w') /\ obs t' = map (lookup (apply_all d0 (firstn (snap t') (committed w')))) addrs) ->
  inv_fin d0 w'.
Proof.
  intros d0 w w' i t' l HF Hi Ht Hc Hnew j t addrs Hj Hfin Hjob.
  rewrite Ht in Hj. destruct (Nat.eq_dec j i) as [->|Hne].
  - rewrite nth_error_upd_same in Hj by exact Hi. injection Hj as <-. exact (Hnew Hfin addrs Hjob).
  - rewrite nth_error_upd_other in Hj by assumption. destruct (HF _ _ _ Hj Hfin Hjob) as [Hle Hobs].
    rewrite Hc, app_length, firstn_app, (proj2 (Nat.sub_0_le _ _) Hle), app_nil_r. split; [lia|exact Hobs].
Qed.

Lemma inv_fin_upd_unfinished : forall d0 w w' i t',
  inv_fin d0 w -> i < length (threads w) ->
  threads w' = upd_thread (threads w) i t' -> committed w' = committed w ->
  finished t' = false -> inv_fin d0 w'.
Proof.
  intros d0 w w' i t' HF Hi Ht Hc Hf. apply (inv_fin_upd d0 w w' i t' [] HF Hi Ht).
  - rewrite app_nil_r. exact Hc.
  - congruence.
Qed.

(* thread i now holds the lock *)
Lemma inv_lock_held : forall d0 w w' i t', i < length (threads w) ->
  owner w' = Some i -> threads w' = upd_thread (threads w) i t' ->
  holding t' = true -> finished t' = false ->
  (forall j t, j <> i -> nth_error (threads w) j = Some t -> holding t = false) ->
  snap t' = length (committed w') -> holder_ok d0 w' t' -> inv_lock d0 w'.
Proof.
  intros d0 w w' i t' Hi Ho Ht Hh Hf Hoth Hs Hok. unfold inv_lock. rewrite Ho, Ht. exists t'.
  split; [apply nth_error_upd_same, Hi|]. do 2 (split; [assumption|]). split; [|split; assumption].
  intros j t0 Hne Hj. rewrite nth_error_upd_other in Hj by assumption. exact (Hoth j t0 Hne Hj).
Qed.

(* thread i has released it *)
Lemma inv_lock_released : forall d0 w w' i t', i < length (threads w) ->
  owner w' = None -> threads w' = upd_thread (threads w) i t' -> holding t' = false ->
  (forall j t, j <> i -> nth_error (threads w) j = Some t -> holding t = false) ->
  wdb w' = apply_all d0 (committed w') -> inv_lock d0 w'.
Proof.
  intros d0 w w' i t' Hi Ho Ht Hh Hoth Hdb. unfold inv_lock. rewrite Ho, Ht. split; [exact Hdb|].
  intros j t0 Hj. destruct (Nat.eq_dec j i) as [->|Hne].
  - rewrite nth_error_upd_same in Hj by exact Hi. injection Hj as <-. exact Hh.
  - rewrite nth_error_upd_other in Hj by assumption. exact (Hoth j t0 Hne Hj).
Qed.

Lemma inv_start : forall d0 w i t, atomic_inv d0 w ->
  nth_error (threads w) i = Some t -> owner w = None -> atomic_inv d0 (start_job w i t).
Proof.
  intros d0 w i t [HL HF] Ei Eo.
  pose proof (nth_error_lt _ _ _ _ Ei) as Hi.
  unfold inv_lock in HL. rewrite Eo in HL. destruct HL as [Hdb Hall].
  assert (Hoth : forall j t', j <> i -> nth_error (threads w) j = Some t' -> holding t' = false)
    by (intros j t' _ Hj; exact (Hall j t' Hj)).
  split; [|eapply inv_fin_upd_unfinished with (w := w) (i := i); [exact HF|exact Hi|reflexivity..]].
  eapply inv_lock_held with (w := w) (i := i); [exact Hi|reflexivity..|exact Hoth|reflexivity|].
  (* no progress yet: the database is still the committed state *)
  unfold holder_ok. cbn [start_job tjob pc obs wdb committed]. destruct (tjob t); [exact Hdb|split; [exact Hdb|reflexivity]].
Qed.

Lemma inv_micro : forall d0 w i t, atomic_inv d0 w ->
  nth_error (threads w) i = Some t -> holding t = true ->
  atomic_inv d0 (micro w i t).
Proof.
  intros d0 w i t [HL HF] Ei Eh.
  pose proof (nth_error_lt _ _ _ _ Ei) as Hi.
  pose proof (holder_is_owner _ _ _ _ HL Ei Eh) as Eo.
  unfold inv_lock in HL. rewrite Eo in HL.
  destruct HL as [t0 [Ei0 [_ [_ [Hoth [Hsnap Hok]]]]]].
  rewrite Ei in Ei0. injection Ei0 as <-.
  unfold holder_ok in Hok. unfold micro.
  destruct (tjob t) as [ws|addrs] eqn:Ej.
  - destruct (nth_error ws (pc t)) as [[a v]|] eqn:Epc.
    + (* one point write *)
      split; [|eapply inv_fin_upd_unfinished with (w := w) (i := i); [exact HF|exact Hi|reflexivity..]].
      eapply inv_lock_held with (w := w) (i := i); [exact Hi|exact Eo|reflexivity..|exact Hoth|exact Hsnap|].
      unfold holder_ok. cbn [tjob pc wdb committed].
      rewrite (firstn_S_nth _ _ _ _ Epc), apply_txn_snoc, <- Hok. reflexivity.
    + (* release: the transaction commits *)
      rewrite (firstn_nth_none _ _ _ Epc) in Hok. split.
      * eapply inv_lock_released with (w := w) (i := i); [exact Hi|reflexivity..|exact Hoth|].
        cbn [wdb committed]. rewrite apply_all_snoc. exact Hok.
      * eapply inv_fin_upd with (w := w) (i := i); [exact HF|exact Hi|reflexivity..|]. discriminate.
  - destruct Hok as [Hdb Hobs].
    destruct (nth_error addrs (pc t)) as [a|] eqn:Epc.
    + (* one point read *)
      split; [|eapply inv_fin_upd_unfinished with (w := w) (i := i); [exact HF|exact Hi|reflexivity..]].
      eapply inv_lock_held with (w := w) (i := i); [exact Hi|exact Eo|reflexivity..|exact Hoth|exact Hsnap|].
      unfold holder_ok. cbn [tjob pc obs wdb committed]. split; [exact Hdb|].
      rewrite (firstn_S_nth _ _ _ _ Epc), map_app, <- Hobs, Hdb. reflexivity.
    + (* release: the reply is complete *)
      rewrite (firstn_nth_none _ _ _ Epc) in Hobs. split.
      * eapply inv_lock_released with (w := w) (i := i); [exact Hi|reflexivity..|exact Hoth|exact Hdb].
      * eapply inv_fin_upd with (w := w) (i := i) (l := []); [exact HF|exact Hi|reflexivity|symmetry; apply app_nil_r|].
        cbn [tjob snap obs committed]. intros _ addrs' [= <-]. rewrite Hsnap, firstn_all. split; [lia|exact Hobs].
Qed.

Theorem inv_step : forall d0 w i, atomic_inv d0 w -> atomic_inv d0 (step w i).
Proof.
  intros d0 w i H. unfold step.
  destruct (nth_error (threads w) i) as [t|] eqn:Ei; [|exact H].
  destruct (finished t) eqn:Ef; [exact H|].
  destruct (holding t) eqn:Eh; cbn [negb].
  - apply inv_micro; assumption.
  - destruct (owner w) eqn:Eo; [exact H|]. apply inv_start; assumption.
Qed.
Print Assumptions inv_init.
Print Assumptions inv_step.

(* what every step keeps, every schedule keeps *)
Lemma run_ind (P : world -> Prop) : (forall w i, P w -> P (step w i)) -> forall sched w, P w -> P (run w sched).
Proof. intros Hs sched. induction sched as [|i sched IH]; intros w H; [exact H|]. exact (IH _ (Hs w i H)). Qed.

Theorem inv_run : forall d0 sched w, atomic_inv d0 w -> atomic_inv d0 (run w sched).
Proof. intros d0. exact (run_ind _ (inv_step d0)). Qed.
Print Assumptions inv_run.

(* MAIN THEOREM: under the job-wide mutex, for every initial database, every list of jobs and every
   schedule, a finished request observed the database exactly as it is after a prefix of the
   complete transactions in commit order. *)
Theorem C19_atomic : forall d0 jobs sched j t addrs,
  let w := run (init d0 jobs) sched in
  nth_error (threads w) j = Some t -> finished t = true -> tjob t = Req addrs ->
  atomic_obs d0 (committed w) addrs (obs t).
Proof.
  intros d0 jobs sched j t addrs w Hj Hf Hjob.
  destruct (inv_run d0 sched _ (inv_init d0 jobs)) as [_ HF].
  destruct (HF _ _ _ Hj Hf Hjob) as [Hle Hobs].
  exists (snap t). split; assumption.
Qed.
Print Assumptions C19_atomic.

(* a step either leaves the world alone or replaces the unfinished thread i by one running the same
   job; the commit order only grows, by the write list of a transaction that finishes with this step *)
Lemma step_cases : forall w i,
  step w i = w \/
  exists t t', nth_error (threads w) i = Some t /\ finished t = false /\
    threads (step w i) = upd_thread (threads w) i t' /\ tjob t' = tjob t /\
    (committed (step w i) = committed w \/
     exists ws, tjob t = Txn ws /\ finished t' = true /\ committed (step w i) = committed w ++ [ws]).
Proof.
  intros w i. unfold step.
  destruct (nth_error (threads w) i) as [t|]; [|left; reflexivity].
  destruct (finished t) eqn:Ef; [left; reflexivity|].
  destruct (holding t); cbn [negb].
  - right. exists t. unfold micro. destruct (tjob t) as [ws|addrs].
    + destruct (nth_error ws (pc t)) as [[a v]|]; eexists; (split; [reflexivity|]); (split; [exact Ef|]);
        do 2 (split; [reflexivity|]); [left; reflexivity|].
      right. exists ws. repeat split; reflexivity.
    + destruct (nth_error addrs (pc t)); eexists; (split; [reflexivity|]); (split; [exact Ef|]);
        do 2 (split; [reflexivity|]); left; reflexivity.
  - destruct (owner w); [left; reflexivity|]. right. exists t. eexists. split; [reflexivity|]. split; [exact Ef|].
    do 2 (split; [reflexivity|]). left. reflexivity.
Qed.

Definition inv_comm (w : world) : Prop :=
  forall ws, In ws (committed w) ->
    exists j t, nth_error (threads w) j = Some t /\ finished t = true /\ tjob t = Txn ws.

Lemma inv_comm_step : forall w i, inv_comm w -> inv_comm (step w i).
Proof.
  intros w i H ws Hin.
  destruct (step_cases w i) as [E|(t & t' & Ei & Ef & Ht & Hjob & Hc)]; [rewrite E in *; exact (H ws Hin)|].
  pose proof (nth_error_lt _ _ _ _ Ei) as Hi. rewrite Ht.
  (* finished threads are frozen *)
  assert (K : forall ws, In ws (committed w) ->
                exists j tj, nth_error (upd_thread (threads w) i t') j = Some tj /\ finished tj = true /\ tjob tj = Txn ws).
  { intros ws0 H0. destruct (H _ H0) as (j & tj & Hj & Hf & Hjb). exists j, tj. split; [|split; assumption].
    rewrite nth_error_upd_other; [exact Hj| |exact Hi]. intros ->. congruence. }
  destruct Hc as [Hc|(ws' & Ej & Hf' & Hc)]; rewrite Hc in Hin; [exact (K _ Hin)|].
  apply in_app_or in Hin as [Hin|[<-|[]]]; [exact (K _ Hin)|].
  exists i, t'. split; [apply nth_error_upd_same; exact Hi|]. split; [exact Hf'|congruence].
Qed.

Lemma inv_comm_run : forall sched w, inv_comm w -> inv_comm (run w sched).
Proof. exact (run_ind _ inv_comm_step). Qed.

(* the job of every thread never changes: thread j always runs job j of the job list *)
Lemma map_tjob_upd : forall ts i t t', nth_error ts i = Some t -> tjob t' = tjob t ->
  map tjob (upd_thread ts i t') = map tjob ts.
Proof.
  induction ts as [|a ts IH]; intros i t t' Hi Hj.
  - destruct i; discriminate.
  - destruct i as [|i].
    + cbn [nth_error] in Hi. injection Hi as ->. rewrite upd_zero. cbn [map]. rewrite Hj. reflexivity.
    + rewrite upd_cons. cbn [map]. rewrite (IH _ _ _ Hi Hj). reflexivity.
Qed.

Lemma step_jobs : forall w i, map tjob (threads (step w i)) = map tjob (threads w).
Proof.
  intros w i. destruct (step_cases w i) as [->|(t & t' & Ei & _ & -> & Hjob & _)]; [reflexivity|].
  exact (map_tjob_upd _ _ _ _ Ei Hjob).
Qed.

Lemma run_jobs : forall sched w, map tjob (threads (run w sched)) = map tjob (threads w).
Proof.
  intros sched w. apply (run_ind (fun w' => map tjob (threads w') = map tjob (threads w))); [|reflexivity].
  intros w' i H. rewrite step_jobs. exact H.
Qed.

Theorem run_init_jobs : forall d0 jobs sched,
  map tjob (threads (run (init d0 jobs) sched)) = jobs.
Proof.
  intros. rewrite run_jobs. cbn [init threads]. rewrite map_map. cbn [tjob]. apply map_id.
Qed.
Print Assumptions run_init_jobs.

(* every element of the commit order is the write list of a finished transaction thread, and that
   thread runs a job of the job list *)
Theorem C19_atomic_committed_are_txns : forall d0 jobs sched ws,
  let w := run (init d0 jobs) sched in
  In ws (committed w) ->
  exists j t, nth_error (threads w) j = Some t /\ finished t = true /\ tjob t = Txn ws /\
              nth_error jobs j = Some (Txn ws).
Proof.
  intros d0 jobs sched ws w Hin. subst w.
  assert (H0 : inv_comm (init d0 jobs)) by (intros x []).
  destruct (inv_comm_run sched _ H0 ws Hin) as [j [t [Hj [Hf Hjob]]]].
  exists j, t. repeat (split; [assumption|]).
  rewrite <- (run_init_jobs d0 jobs sched) at 1.
  rewrite nth_error_map, Hj. cbn [option_map]. rewrite Hjob. reflexivity.
Qed.
Print Assumptions C19_atomic_committed_are_txns.

Definition pp_d0 : db := [(0,1);(1,1);(2,1)]%N.
Definition pp_jobs : list job := [Txn [(0,7);(1,7);(2,7)]%N; Req [0;1;2]%N].
(* writer starts and writes point 0; reader runs to completion; writer completes *)
Definition pp_sched : list nat := [0;0;1;1;1;1;1;0;0;0].
Definition pp_reader : thread :=
  {| tjob := Req [0;1;2]%N; pc := 3; holding := false; finished := true;
     obs := [Some 7; Some 1; Some 1]%N; snap := 0 |}.

Example pp_run_threads :
  nth_error (threads (run_pp (init pp_d0 pp_jobs) pp_sched)) 1 = Some pp_reader.
Proof. vm_compute. reflexivity. Qed.
Example pp_run_committed :
  committed (run_pp (init pp_d0 pp_jobs) pp_sched) = [[(0,7);(1,7);(2,7)]%N].
Proof. vm_compute. reflexivity. Qed.
Example pp_run_all_finished :
  forallb finished (threads (run_pp (init pp_d0 pp_jobs) pp_sched)) = true.
Proof. vm_compute. reflexivity. Qed.

Theorem C19_atomic_needs_lock : exists d0 jobs sched j t addrs,
  let w := run_pp (init d0 jobs) sched in
  nth_error (threads w) j = Some t /\ finished t = true /\ tjob t = Req addrs /\
  ~ atomic_obs d0 (committed w) addrs (obs t).
Proof.
  exists pp_d0, pp_jobs, pp_sched, 1, pp_reader, [0;1;2]%N. cbv zeta.
  split; [exact pp_run_threads|]. split; [reflexivity|]. split; [reflexivity|].
  rewrite pp_run_committed. intros [k [Hk H]].
  cbn [length] in Hk.
  destruct k as [|[|k]]; [vm_compute in H; discriminate H|vm_compute in H; discriminate H|lia].
Qed.
Print Assumptions C19_atomic_needs_lock.

(* the same jobs, the same schedule, under the job-wide mutex: the reader sees all-or-nothing *)
Example pp_sched_with_lock :
  let w := run (init pp_d0 pp_jobs) (pp_sched ++ [1;1;1;1;1]) in
  map (fun t => (finished t, obs t, snap t)) (threads w) =
    [(true, [], 0); (true, [Some 7; Some 7; Some 7]%N, 1)] /\
  committed w = [[(0,7);(1,7);(2,7)]%N].
Proof. vm_compute. split; reflexivity. Qed.

Definition ex : world :=
  init [] [Txn [(0,7);(1,7);(2,7)]%N; Req [0;1;2]%N; Txn [(0,9);(1,9);(2,9)]%N].
Definition ex_sched : list nat := [0;1;0;1;2;0;1;0;0;1;1;1;1;2;2;2;2;2].

(* after ex_sched the reader has read [7;7;7] with snap = 1 (it still holds the
   lock, the second writer is blocked) *)
Example ex_adversarial :
  map (fun t => (obs t, snap t)) (threads (run ex ex_sched)) =
    [([], 0); ([Some 7; Some 7; Some 7]%N, 1); ([], 0)].
Proof. vm_compute. reflexivity. Qed.

(* letting the reader release and the second writer run: everything finishes, the reader's
   observation is unchanged and is the state after the first committed transaction *)
Example ex_finished :
  let w := run ex (ex_sched ++ [1;2;2;2;2;2]) in
  forallb finished (threads w) = true /\
  map (fun t => (obs t, snap t)) (threads w) =
    [([], 0); ([Some 7; Some 7; Some 7]%N, 1); ([], 1)] /\
  committed w = [[(0,7);(1,7);(2,7)]; [(0,9);(1,9);(2,9)]]%N /\
  map (lookup (wdb w)) [0;1;2]%N = [Some 9; Some 9; Some 9]%N.
Proof. vm_compute. repeat split; reflexivity. Qed.

(* C19_atomic instantiated on the example: hypotheses are satisfiable *)
Example ex_atomic_instance :
  let w := run ex (ex_sched ++ [1;2;2;2;2;2]) in
  exists t, nth_error (threads w) 1 = Some t /\ finished t = true /\
            atomic_obs [] (committed w) [0;1;2]%N (obs t).
Proof.
  cbv zeta. eexists. split; [vm_compute; reflexivity|]. split; [reflexivity|].
  eapply (C19_atomic [] _ (ex_sched ++ [1;2;2;2;2;2]) 1); [vm_compute; reflexivity|reflexivity|reflexivity].
Qed.
