(* C13, liveness of shutdown: from EVERY state whose command queue holds a Shutdown command, the
   task's own steps (recv, timers; the clock advancing) lead to termination, whatever is queued in
   front of it and whatever phase the task is in. *)
From Coq Require Import NArith List Bool Lia.
From Rodbus Require Import Gen.SessionErrors Model.ClientTask Proofs.ClientBase Proofs.C13Proofs.
Import ListNotations.
Local Open Scope N_scope.

Definition internal (e : event) : bool := match e with EvRecv | EvTimer | EvTick _ => true | _ => false end.

(* the channel is untouched, or the task is gone *)
Definition chan_or_done (s s' : state) : Prop :=
  ph s' = PDone \/ (queue s' = queue s /\ blocked s' = blocked s /\ ph s' <> PDone /\ handles s' = handles s).

Lemma summary_chan s0 s r ids : summary s0 r ids -> queue s0 = queue s -> blocked s0 = blocked s -> handles s0 = handles s ->
  chan_or_done s (fst r).
Proof.
  intros (_ & _ & _ & _ & Hh & H) Hq Hb Hh0. destruct H as [(Hn & H1 & H2 & _)|(Hd & _)]; [right|left; exact Hd].
  rewrite H1, H2, Hq, Hb, Hh, Hh0. auto.
Qed.

Section Live.
Variable cfg : config.

Lemma run_app : forall es1 es2 s, fst (run cfg s (es1 ++ es2)) = fst (run cfg (fst (run cfg s es1)) es2).
Proof.
  induction es1 as [|e es1 IH]; intros es2 s; [reflexivity|]. cbn [app]. rewrite !run_cons. apply IH.
Qed.

Lemma take_chan s c : listens (ph s) = true ->
  chan_or_done s (fst (take s c)) /\ (c = CShutdown -> ph (fst (take s c)) = PDone).
Proof.
  intros Hl. assert (Hn : ph s <> PDone) by (intros E; rewrite E in Hl; discriminate). split.
  - destruct (take_has_shape s c Hl) as [c s1 _ Hsc Hp|r _|c r _ H|r _].
    + (* tsh_set *) right. cbn [fst]. rewrite Hp, (same_chan_queue _ _ Hsc), (same_chan_blocked _ _ Hsc), (same_chan_handles _ _ Hsc). auto.
    + (* tsh_fail_fast *) right. auto.
    + (* tsh_summary *) apply (summary_chan s s r _ H); reflexivity.
    + (* tsh_transmit *) destruct (transmit_transmits s r) as [_|_ _| |u];
        try (apply (summary_chan _ s _ _ (finish_summary _ r _)); reflexivity); right; repeat split; discriminate.
  - intros ->. unfold take. destruct (ph s); try discriminate Hl; reflexivity.
Qed.

(* after `finish` the task listens again, or is gone *)
Lemma finish_listens s r res : let s' := fst (finish s r res) in chan_or_done s s' /\ (ph s' <> PDone -> listens (ph s') = true).
Proof.
  pose proof (finish_summary s r res) as H. split; [apply (summary_chan _ s _ _ H); reflexivity|].
  destruct H as (Hi & _). intros Hnd. destruct (ph (fst (finish s r res))); try reflexivity; try discriminate Hi; congruence.
Qed.

(* a request in flight: tick to its deadline, then the timer *)
Lemma in_flight_to_listening s r tx d : ph s = PInFlight r tx d -> exists es, forallb internal es = true /\
  let s' := fst (run cfg s es) in chan_or_done s s' /\ (ph s' <> PDone -> listens (ph s') = true).
Proof.
  intros Eph. exists [EvTick (fire cfg d - now s); EvTimer]. split; [reflexivity|]. cbn [run step fst]. cbn [ph set_now now]. rewrite Eph, due_after_tick.
  pose proof (finish_listens (set_now s (now s + (fire cfg d - now s))) r (RErr deadline_error)) as H.
  destruct (finish _ r (RErr deadline_error)) as [s' o]. exact H.
Qed.

(* a phase that does not listen becomes a listening one (or the task ends) by its own timers *)
Lemma to_listening s : ph s <> PDone -> exists es, forallb internal es = true /\
  let s' := fst (run cfg s es) in chan_or_done s s' /\ (ph s' <> PDone -> listens (ph s') = true).
Proof.
  intros Hn.
  assert (Hnow : listens (ph s) = true -> exists es, forallb internal es = true /\
            let s' := fst (run cfg s es) in chan_or_done s s' /\ (ph s' <> PDone -> listens (ph s') = true)).
  { intros Hl. exists []. split; [reflexivity|]. cbn [run fst]. split; [right; auto|intros _; exact Hl]. }
  destruct (ph s) as [| | |r tx until|r tx deadline|until|] eqn:Eph.
  - (* PWaitEnabled *) apply Hnow. reflexivity.
  - (* PConnecting *) apply Hnow. reflexivity.
  - (* PIdle *) apply Hnow. reflexivity.
  - (* PWriting: at the latest when its bound (write start + request timeout) is reached the write is done - the request
       is then in flight - or the request fails and the connection ends; no release is needed *)
    set (t := fire cfg (wdl s) - now s). set (s0 := set_now s (now s + t)).
    assert (Hle : (fire cfg (wdl s) <=? now s + t) = true) by apply due_after_tick.
    destruct (Nat.eqb (wpark s) 0 && (fire cfg until <=? now s + t)) eqn:Ew.
    + set (s1 := set_ph s0 (PInFlight r tx (now s0 + rq_timeout r))).
      destruct (in_flight_to_listening s1 r tx _ eq_refl) as (es & Hint & Hch & Hls).
      exists ([EvTick t; EvTimer] ++ es). split; [cbn [forallb app internal andb]; exact Hint|].
      rewrite run_app. cbn [run step fst]. cbn [ph set_now now wpark wdl]. rewrite Eph, Ew. unfold written. cbn [fst].
      fold s0. fold s1. split; [|exact Hls]. destruct Hch as [Hd|(Hq & Hb & Hnd & Hh)]; [left; exact Hd|right; auto].
    + exists [EvTick t; EvTimer]. split; [reflexivity|]. cbn [run step fst]. cbn [ph set_now now wpark wdl]. rewrite Eph, Ew, Hle.
      fold s0. pose proof (finish_listens s0 r (RErr write_timeout_error)) as H.
      destruct (finish s0 r (RErr write_timeout_error)) as [s' o]. exact H.
  - (* PInFlight *) apply (in_flight_to_listening s r tx deadline Eph).
  - (* PWaiting *) apply Hnow. reflexivity.
  - (* PDone *) destruct (Hn eq_refl).
Qed.

Definition ends (s : state) : Prop := exists es, forallb internal es = true /\ ph (fst (run cfg s es)) = PDone.

Lemma ends_done s : ph s = PDone -> ends s.
Proof. intros H. exists []. auto. Qed.

Lemma ends_app s es0 : forallb internal es0 = true -> ends (fst (run cfg s es0)) -> ends s.
Proof.
  intros Hi (es & Hi' & Hd). exists (es0 ++ es). split; [rewrite forallb_app, Hi, Hi'; reflexivity|]. rewrite run_app. exact Hd.
Qed.

(* it suffices to get there from the listening states with the same channel *)
Lemma ends_via_listening s : ph s <> PDone ->
  (forall s1, queue s1 = queue s -> blocked s1 = blocked s -> handles s1 = handles s -> listens (ph s1) = true -> ends s1) -> ends s.
Proof.
  intros Hn H. destruct (to_listening s Hn) as (es0 & Hi & Hch & Hls). apply (ends_app s es0 Hi).
  destruct Hch as [Hd|(Hq & Hb & Hn1 & Hh)]; [apply ends_done, Hd|apply H; auto].
Qed.

Lemma ends_recv s : ends (fst (step cfg s EvRecv)) -> ends s.
Proof. intros H. apply (ends_app s [EvRecv] eq_refl). cbn [run]. destruct (step cfg s EvRecv). exact H. Qed.

(* the recv step of a listening state takes the head of the queue: the task ends, or the command is consumed - and it was
   not Shutdown *)
Lemma recv_chan s c q : listens (ph s) = true -> queue s = c :: q ->
  let s2 := fst (step cfg s EvRecv) in
  ph s2 = PDone \/ (queue s2 = q ++ firstn 1 (blocked s) /\ blocked s2 = skipn 1 (blocked s) /\ ph s2 <> PDone /\
                    handles s2 = handles s /\ c <> CShutdown).
Proof.
  intros Hl Hq. cbn [step]. rewrite Hl, Hq.
  destruct (take_chan (popped s q) c Hl) as [[Hd|(H1 & H2 & H3 & H4)] Hsd]; [left; exact Hd|right].
  repeat split; auto.
Qed.

Theorem shutdown_terminates : forall n s, (length (queue s ++ blocked s) <= n)%nat -> (queue s = [] -> blocked s = []) ->
  In CShutdown (queue s ++ blocked s) -> ph s <> PDone -> ends s.
Proof.
  induction n as [|n IH]; intros s Hlen Hwf Hin Hn.
  - destruct (queue s ++ blocked s); [destruct Hin|cbn in Hlen; lia].
  - apply (ends_via_listening s Hn). intros s1 Hq Hb Hh Hl. rewrite <- Hq, <- Hb in Hlen, Hwf, Hin.
    destruct (queue s1) as [|c q] eqn:Eq1; [rewrite (Hwf eq_refl) in Hin; destruct Hin|].
    apply ends_recv. destruct (recv_chan s1 c q Hl Eq1) as [Hd|(Hq2 & Hb2 & Hn2 & _ & Hc)]; [apply ends_done, Hd|].
    assert (Hall : queue (fst (step cfg s1 EvRecv)) ++ blocked (fst (step cfg s1 EvRecv)) = q ++ blocked s1)
      by (rewrite Hq2, Hb2, <- app_assoc, firstn_skipn; reflexivity).
    apply IH; [rewrite Hall; cbn in Hlen; lia| |rewrite Hall; destruct Hin as [E|Hin]; [congruence|exact Hin]|exact Hn2].
    intros E. rewrite Hq2 in E. apply app_eq_nil in E. destruct E as [_ E]. rewrite Hb2. destruct (blocked s1); [reflexivity|discriminate E].
Qed.

(* the same when every handle has been dropped: the queue drains and the closed queue ends the task *)
Theorem closed_terminates : forall n s, (length (queue s) <= n)%nat -> handles s = 0%nat -> blocked s = [] -> ph s <> PDone -> ends s.
Proof.
  induction n as [|n IH]; intros s Hlen Hh Hb Hn; apply (ends_via_listening s Hn); intros s1 Hq Hb1 Hh1 Hl;
    rewrite <- Hq in Hlen; rewrite Hb in Hb1; rewrite Hh in Hh1; apply ends_recv;
    (destruct (queue s1) as [|c q] eqn:Eq1;
     [apply ends_done, (c13_terminates cfg s1 Hl); [exact Eq1|unfold closed; rewrite Hh1, Hb1; reflexivity]|]).
  - cbn in Hlen. lia.
  - destruct (recv_chan s1 c q Hl Eq1) as [Hd|(Hq2 & Hb2 & Hn2 & Hh2 & _)]; [apply ends_done, Hd|]. rewrite Hb1 in Hq2, Hb2.
    apply IH; [rewrite Hq2, app_nil_r; cbn in Hlen; lia|congruence|exact Hb2|exact Hn2].
Qed.

End Live.

Lemma shutdown_from_every_state cfg s :
  (queue s = [] -> blocked s = []) -> In CShutdown (queue s ++ blocked s) -> ph s <> PDone ->
  exists es, forallb internal es = true /\ ph (fst (run cfg s es)) = PDone.
Proof. exact (shutdown_terminates cfg (length (queue s ++ blocked s)) s (le_n _)). Qed.
