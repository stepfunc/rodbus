(* RtuServerTask::run over the session loop: handler state and decode level persist across re-opens,
   Shutdown / a closed channel end the task from the open port and from the wait, decode level
   changes during the wait are applied and neither shorten nor lengthen it. *)
From Coq Require Import NArith List Lia.
From Rodbus Require Import Base.Outcome Base.ServerTypes Base.ServerRun Model.Retry Model.RtuServerLoop Proofs.ServerRunProofs.
Import ListNotations.
Local Open Scope N_scope.

Lemma sleep_strip : forall evs rem d d', snd (sleep_for rem d evs) = snd (sleep_for rem d' (wstrip evs)).
Proof.
  induction evs as [|ev rest IH]; intros rem d d'; [reflexivity|].
  destruct ev as [[x|]| |dt]; cbn [wstrip sleep_for]; try reflexivity.
  - apply IH.
  - destruct (rem <=? dt); [reflexivity|apply IH].
Qed.

(* the wait never ends before `remaining` has passed, whatever commands arrive *)
Lemma sleep_not_early : forall evs rem d, advance_total evs < rem -> snd (sleep_for rem d evs) <> SleepElapsed.
Proof.
  induction evs as [|ev rest IH]; intros rem d Ht; [discriminate|].
  destruct ev as [[x|]| |dt]; cbn [sleep_for advance_total] in *; try discriminate.
  - apply IH. exact Ht.
  - destruct (N.leb_spec rem dt); [lia|]. apply IH. lia.
Qed.

Definition no_wend (evs : list wevent) : Prop :=
  Forall (fun ev => match ev with WCommand Shutdown | WClosed => False | _ => True end) evs.

(* ... and it does end once that much time has passed, whatever level changes arrive *)
Lemma sleep_elapses : forall evs rem d, no_wend evs -> 0 < rem -> rem <= advance_total evs -> snd (sleep_for rem d evs) = SleepElapsed.
Proof.
  induction evs as [|ev rest IH]; intros rem d Hn Hpos Ht; [cbn [advance_total] in Ht; lia|].
  inversion Hn as [|? ? Hev Hrest]; subst.
  destruct ev as [[x|]| |dt]; cbn [sleep_for advance_total] in *; try contradiction.
  - apply IH; assumption.
  - destruct (N.leb_spec rem dt); [reflexivity|]. apply IH; [assumption|lia|lia].
Qed.

Definition wends (ev : wevent) : Prop := ev = WCommand Shutdown \/ ev = WClosed.

Lemma sleep_shutdown ev post : wends ev -> forall pre rem d,
  sleep_for rem d (pre ++ ev :: post) =
    match sleep_for rem d pre with (d', SleepWaiting _) => (d', SleepShutdown) | x => x end.
Proof.
  intros Hev. induction pre as [|e0 pre IH]; intros rem d.
  - cbn [app]. destruct Hev as [-> | ->]; reflexivity.
  - cbn [app]. destruct e0 as [[x|]| |dt]; cbn [sleep_for]; try reflexivity.
    + apply IH.
    + destruct (rem <=? dt); [reflexivity|apply IH].
Qed.

Section Loop.
Context {St E : Type}.
Variable hf : ucfg St -> frame -> outcome E (list N) * ucfg St * list event.
Notation reset r := {| dmin := dmin r; dmax := dmax r; cur := dmin r |}.

(* what follows an episode that delivered ws and made the calls lg: the outcome x of sleep_for, and
   after a full wait the remaining episodes from the state the episode left *)
Definition then_wait (ws : list (list N)) (u : ucfg St) (lg : list event) (retry : doubling) (rest : list episode)
  (x : N * sleep_end) : list (list (list N)) * ucfg St * list event * N * doubling * task_end E :=
  match x with
  | (d, SleepElapsed) => let '(ws', u', lg', d', r, e) := rtu_task hf u d retry rest in (ws :: ws', u', lg ++ lg', d', r, e)
  | (d, SleepShutdown) => ([ws], u, lg, d, retry, TShutdown)
  | (d, SleepWaiting rem) => ([ws], u, lg, d, retry, TWaiting rem)
  end.

Lemma rtu_task_open_fails units d retry wait rest :
  rtu_task hf units d retry (EpOpenFails wait :: rest) =
    match step retry Fail with
    | Some (retry', Some delay) => then_wait [] units [] retry' rest (sleep_for delay d wait)
    | _ => ([[]], units, [], d, retry, TPanic)
    end.
Proof. reflexivity. Qed.

(* the port opens: the strategy is reset; a session that ends with an error (bad frame, read or write
   error) is followed by a wait of after_disconnect() = the strategy's minimum delay, and the next
   open port is served by the SAME session task, from the handler states and the decode level the
   failed one left *)
Lemma rtu_task_open units d retry sess wait rest :
  rtu_task hf units d retry (EpOpen sess wait :: rest) =
    let '(ws, u, lg, d1, e) := ServerRun.run hf units d MIdle sess in
    if reopens e then then_wait ws u lg (reset retry) rest (sleep_for (dmin retry) d1 wait)
    else ([ws], u, lg, d1, reset retry, match e with RShutdown => TShutdown | RPanic => TPanic | _ => TInSession e end).
Proof. cbn [rtu_task]. destruct (ServerRun.run hf units d MIdle sess) as [[[[ws u] lg] d1] []]; reflexivity. Qed.

(* handler states and decode level persist across re-opens; a failed open attempt changes nothing but the
   retry strategy and (through commands) the level; Shutdown / a closed channel end the task from the open
   port (parked in run_one or in a reply write) and from either wait *)
Lemma reopen_keeps_state units d retry sess wait rest ws u lg d1 e d2 :
  ServerRun.run hf units d MIdle sess = (ws, u, lg, d1, e) -> reopens e = true ->
  sleep_for (dmin retry) d1 wait = (d2, SleepElapsed) ->
  rtu_task hf units d retry (EpOpen sess wait :: rest) =
    (let '(ws', u', lg', d', r, e') := rtu_task hf u d2 (reset retry) rest in (ws :: ws', u', lg ++ lg', d', r, e')).
Proof. intros Hrun Hre Hsl. rewrite rtu_task_open, Hrun, Hre, Hsl. reflexivity. Qed.

Lemma open_failure_keeps_state units d retry retry' delay wait rest d2 :
  step retry Fail = Some (retry', Some delay) -> sleep_for delay d wait = (d2, SleepElapsed) ->
  rtu_task hf units d retry (EpOpenFails wait :: rest) =
    (let '(ws, u, lg, d', r, e) := rtu_task hf units d2 retry' rest in ([] :: ws, u, lg, d', r, e)).
Proof. intros Hs Hsl. rewrite rtu_task_open_fails, Hs, Hsl. reflexivity. Qed.

Lemma shutdown_while_open units d retry pre ev post wait rest ws u lg d1 e :
  ends ev -> ServerRun.run hf units d MIdle pre = (ws, u, lg, d1, e) -> (e = ROpen \/ exists r, e = RBlocked r) ->
  rtu_task hf units d retry (EpOpen (pre ++ ev :: post) wait :: rest) = ([ws], u, lg, d1, reset retry, TShutdown).
Proof.
  intros Hev Hrun He. rewrite rtu_task_open, (run_shutdown_ends hf ev post Hev), Hrun. destruct He as [-> | [r ->]]; reflexivity.
Qed.

Lemma shutdown_while_waiting_after_session units d retry sess pre ev post rest ws u lg d1 e d2 rem :
  wends ev -> ServerRun.run hf units d MIdle sess = (ws, u, lg, d1, e) -> reopens e = true ->
  sleep_for (dmin retry) d1 pre = (d2, SleepWaiting rem) ->
  rtu_task hf units d retry (EpOpen sess (pre ++ ev :: post) :: rest) = ([ws], u, lg, d2, reset retry, TShutdown).
Proof. intros Hev Hrun Hre Hsl. rewrite rtu_task_open, Hrun, Hre, (sleep_shutdown ev post Hev), Hsl. reflexivity. Qed.

Lemma shutdown_while_waiting_after_open_failure units d retry retry' delay pre ev post rest d2 rem :
  wends ev -> step retry Fail = Some (retry', Some delay) -> sleep_for delay d pre = (d2, SleepWaiting rem) ->
  rtu_task hf units d retry (EpOpenFails (pre ++ ev :: post) :: rest) = ([[]], units, [], d2, retry', TShutdown).
Proof. intros Hev Hs Hsl. rewrite rtu_task_open_fails, Hs, (sleep_shutdown ev post Hev), Hsl. reflexivity. Qed.

(* the task as a whole does not depend on them: with every level change removed - from the waits and
   from the sessions - and from any initial level, the same replies, handler calls, handler states,
   retry state, and the task ends the same way; in particular no wait is shortened or lengthened *)
Definition tobs (x : list (list (list N)) * ucfg St * list event * N * doubling * task_end E) :=
  let '(ws, u, lg, _, r, e) := x in (ws, u, lg, r, e).
Definition estrip (eps : list episode) : list episode :=
  map (fun ep => match ep with EpOpenFails w => EpOpenFails (wstrip w) | EpOpen s w => EpOpen (strip s) (wstrip w) end) eps.

Lemma then_wait_strip rest ws u lg retry delay d d' w :
  (forall units d d' retry, tobs (rtu_task hf units d retry rest) = tobs (rtu_task hf units d' retry (estrip rest))) ->
  tobs (then_wait ws u lg retry rest (sleep_for delay d w)) =
  tobs (then_wait ws u lg retry (estrip rest) (sleep_for delay d' (wstrip w))).
Proof.
  intros IH. pose proof (sleep_strip w delay d d') as Hs.
  destruct (sleep_for delay d w) as [d1 e1], (sleep_for delay d' (wstrip w)) as [d2 e2]. cbn [snd] in Hs. subst e2.
  destruct e1; try reflexivity. cbn [then_wait]. specialize (IH u d1 d2 retry).
  destruct (rtu_task hf u d1 retry rest) as [[[[[ws1 u1] lg1] dd1] r1] x1].
  destruct (rtu_task hf u d2 retry (estrip rest)) as [[[[[ws2 u2] lg2] dd2] r2] x2].
  cbn [tobs] in *. inversion IH. reflexivity.
Qed.

Theorem levels_unobservable : forall eps units d d' retry,
  tobs (rtu_task hf units d retry eps) = tobs (rtu_task hf units d' retry (estrip eps)).
Proof.
  induction eps as [|ep rest IH]; intros units d d' retry; [reflexivity|].
  destruct ep as [w|s w]; cbn [estrip map]; fold (estrip rest).
  - rewrite !rtu_task_open_fails. destruct (step retry Fail) as [[retry' [delay|]]|]; try reflexivity.
    apply then_wait_strip, IH.
  - rewrite !rtu_task_open. pose proof (unobservable hf s units d d' MIdle) as Hr.
    destruct (ServerRun.run hf units d MIdle s) as [[[[ws u] lg] d1] e].
    destruct (ServerRun.run hf units d' MIdle (strip s)) as [[[[ws2 u2] lg2] d2] e2].
    cbn [observable] in Hr. inversion Hr. destruct (reopens e2); [apply then_wait_strip, IH|reflexivity].
Qed.
End Loop.
