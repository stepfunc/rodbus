(* Proofs for C11: transaction ids, FIFO, one outstanding request, mismatch / idle drop. *)
(* ZifyN is what lets `lia` decide the goals with `mod 65536` below *)
From Coq Require Import NArith List Lia ZifyN.
From Rodbus Require Import Spec.ClientSpec Gen.SessionErrors Model.ClientTask Proofs.ClientBase.
Import ListNotations.
Local Open Scope N_scope.

Lemma txid_next_spec v : v < 65536 ->
  snd (txid_next v) = v /\ fst (txid_next v) = (v + 1) mod 65536 /\ fst (txid_next v) < 65536.
Proof.
  intros H. unfold txid_next, txid_max. destruct (N.eqb_spec v 65535) as [->|Hn]; cbn [fst snd].
  - repeat split; reflexivity.
  - rewrite N.mod_small by lia. repeat split; lia.
Qed.

(* for every n : N (no bound): n calls of next starting from 0 leave the counter at n mod 2^16 *)
Lemma txid_iter : forall n : N, N.iter n (fun v => fst (txid_next v)) 0 = txid_spec n.
Proof.
  intros n. unfold txid_spec. induction n using N.peano_ind.
  - reflexivity.
  - rewrite N.iter_succ, IHn.
    destruct (txid_next_spec (n mod 65536)) as (_ & E & _); [apply N.mod_upper_bound; lia|].
    rewrite E, N.add_mod_idemp_l by lia. f_equal. lia.
Qed.

Lemma subseq_refl {A} (l : list A) : Subseq l l.
Proof. induction l; constructor; assumption. Qed.
Lemma subseq_app_l {A} (x a : list A) : Subseq a (x ++ a).
Proof. induction x; cbn; [apply subseq_refl|constructor; assumption]. Qed.
Lemma subseq_app_r {A} (a l m : list A) : Subseq a l -> Subseq a (l ++ m).
Proof. induction 1; cbn; constructor; assumption. Qed.
Lemma subseq_app_same {A} (a b c : list A) : Subseq a b -> Subseq (a ++ c) (b ++ c).
Proof. induction 1; cbn; [apply subseq_app_l|constructor; assumption|constructor; assumption]. Qed.
Lemma subseq_app_head {A} (w a b : list A) : Subseq a b -> Subseq (w ++ a) (w ++ b).
Proof. induction w; cbn; [auto|constructor; auto]. Qed.
Lemma subseq_trans {A} (a b c : list A) : Subseq a b -> Subseq b c -> Subseq a c.
Proof.
  intros Hab Hbc. revert a Hab. induction Hbc as [l|x b l Hbc IH|x b l Hbc IH]; intros a Hab.
  - inversion Hab; subst. constructor.
  - inversion Hab; subst; [constructor|constructor; auto|apply sub_skip; auto].
  - apply sub_skip; auto.
Qed.
Lemma subseq_nil_l {A} (l : list A) : Subseq [] l.
Proof. constructor. Qed.

(* a step gives out no transaction id, or the next one *)
Definition tx_law (s s' : state) (o : list output) : Prop :=
  (stamps o = [] /\ txid s' = txid s) \/
  (stamps o = [snd (txid_next (txid s))] /\ txid s' = fst (txid_next (txid s))).

(* the requests not yet on the wire, in the order in which they will get there *)
Definition writing (p : phase) : list nat := match p with PWriting r _ _ => [rq_id r] | _ => [] end.
Definition waiting (s : state) : list nat := writing (ph s) ++ queued (queue s) ++ queued (blocked s).
Definition submitted_of (e : event) : list nat := match e with EvSubmit (CReq r) _ => [rq_id r] | _ => [] end.
(* what a step writes comes off the front of `waiting`; what it accepts (`new`) goes to the back *)
Definition fifo_law (s s' : state) (o : list output) (new : list nat) : Prop :=
  Subseq (wire_ids o ++ waiting s') (waiting s ++ new).

(* at most one request is written per step, and only into PInFlight *)
Definition wire_law (s s' : state) (o : list output) : Prop :=
  wire_ids o = [] \/
  (exists r tx d, wire_ids o = [rq_id r] /\ ph s' = PInFlight r tx d /\ d = now s + rq_timeout r /\
                  (ph s = PIdle \/ exists u, ph s = PWriting r tx u) /\ completed o = [] /\
                  (forall tx' id', In (OWire tx' id') o -> tx' = tx /\ id' = rq_id r) /\
                  (ph s = PIdle -> In (OStamp tx (rq_id r)) o)).

Definition laws (s s' : state) (o : list output) (new : list nat) : Prop :=
  tx_law s s' o /\ fifo_law s s' o new /\ wire_law s s' o.

(* what wire_law is used for *)
Lemma wire_law_none s s' o r tx d : wire_law s s' o -> ph s = PInFlight r tx d -> wire_ids o = [].
Proof.
  intros [H|(r' & tx' & d' & _ & _ & _ & [H|[u H]] & _)] Eph; [exact H|rewrite Eph in H; discriminate..].
Qed.

Lemma wire_law_written s s' o id : wire_law s s' o -> In id (wire_ids o) ->
  wire_ids o = [id] /\ exists r tx, ph s' = PInFlight r tx (now s + rq_timeout r) /\ rq_id r = id.
Proof.
  intros [H|(r & tx & d & H & Hp & -> & _)]; rewrite H; [intros []|]. intros [<-|[]]. split; [reflexivity|]. exists r, tx. auto.
Qed.

Lemma wire_law_src s s' o tx id : wire_law s s' o -> In (OWire tx id) o ->
  In (OStamp tx id) o \/ exists r u, ph s = PWriting r tx u /\ rq_id r = id.
Proof.
  intros [W|(r & t & d & _ & _ & _ & Hps & _ & Hall & Hst)] H.
  - exfalso. revert W H. induction o as [|x o IH]; [intros _ []|]. rewrite wire_ids_cons. intros W [->|H]; [discriminate W|].
    destruct x; cbn [app] in W; try discriminate W; exact (IH W H).
  - destruct (Hall tx id H) as [-> ->]. destruct Hps as [Hi|[u Hw]]; [left; exact (Hst Hi)|right; eauto].
Qed.

Lemma laws_nochange s s' o new : txid s' = txid s -> waiting s' = waiting s -> wire_ids o = [] -> stamps o = [] -> laws s s' o new.
Proof.
  intros Ht Hw Hwi Hs. split; [left; auto|]. split; [|left; exact Hwi]. unfold fifo_law. rewrite Hw, Hwi. cbn [app].
  apply subseq_app_r, subseq_refl.
Qed.

Lemma laws_quiet s s' : txid s' = txid s -> waiting s' = waiting s -> laws s s' [] [].
Proof. intros Ht Hw. apply laws_nochange; auto. Qed.

Lemma laws_complete_only s s' o : txid s' = txid s -> waiting s' = waiting s -> wire_ids o = [] -> stamps o = [] -> laws s s' o [].
Proof. apply laws_nochange. Qed.

Lemma writing_nil p : inflight p = [] -> writing p = [].
Proof. destruct p; try reflexivity; discriminate. Qed.

Lemma summary_laws s s' o ids new : summary s (s', o) ids -> laws s s' o new.
Proof.
  intros (Hi & Hw & Hs & Ht & Hh & H). cbn [fst snd] in *. split; [left; auto|]. split; [|left; exact Hw].
  unfold fifo_law, waiting. rewrite Hw, (writing_nil _ Hi). cbn [app]. apply subseq_app_r.
  destruct H as [(_ & -> & -> & _)|(_ & -> & -> & _)]; [apply subseq_app_l|constructor].
Qed.

(* the laws for a command just taken from the head of the queue, where nothing is being written: the ids it carried
   (`front`) stand before those that wait *)
Definition took (s s' : state) (o : list output) (front : list nat) : Prop :=
  tx_law s s' o /\ Subseq (wire_ids o ++ waiting s') (front ++ waiting s) /\ wire_law s s' o.

Lemma took_nochange s s' o front : txid s' = txid s -> waiting s' = waiting s -> wire_ids o = [] -> stamps o = [] -> took s s' o front.
Proof. intros Ht Hw Hwi Hs. split; [left; auto|]. split; [|left; exact Hwi]. rewrite Hwi, Hw. apply subseq_app_l. Qed.

Lemma summary_took s0 s s' o ids front : summary s0 (s', o) ids -> txid s0 = txid s -> queue s0 = queue s -> blocked s0 = blocked s ->
  writing (ph s) = [] -> took s s' o front.
Proof.
  intros (Hi & Hw & Hs & Ht' & Hh & H) Ht Hq Hb Hwr. cbn [fst snd] in *. split; [left; split; congruence|]. split; [|left; exact Hw].
  unfold waiting. rewrite Hw, Hwr, (writing_nil _ Hi). cbn [app].
  destruct H as [(_ & -> & -> & _)|(_ & -> & -> & _)]; [rewrite Hq, Hb; apply subseq_app_l|constructor].
Qed.

Lemma took_popped s c q s' o : listens (ph s) = true -> queue s = c :: q -> took (popped s q) s' o (queued [c]) -> laws s s' o [].
Proof.
  intros Hl Hq (Ht & Hf & Hw). split; [exact Ht|]. split; [|exact Hw]. unfold fifo_law. rewrite app_nil_r.
  replace (waiting s) with (queued [c] ++ waiting (popped s q)); [exact Hf|]. unfold waiting. change (ph (popped s q)) with (ph s).
  replace (writing (ph s)) with (@nil nat) by (destruct (ph s); try reflexivity; discriminate Hl). apply (popped_queued s c q Hq).
Qed.

(* a write is in progress after a step only if it was already, or if this step stamped the request *)
Definition entersw (s s' : state) (o : list output) : Prop :=
  forall r tx u, ph s' = PWriting r tx u -> ph s = PWriting r tx u \/ In (OStamp tx (rq_id r)) o.

Lemma entersw_same s s' o : ph s' = ph s -> entersw s s' o.
Proof. intros Hp r tx d H. left. rewrite <- Hp. exact H. Qed.
Lemma entersw_nil s s' o : inflight (ph s') = [] -> entersw s s' o.
Proof. intros Hi r tx d H. rewrite H in Hi. discriminate. Qed.

Section Laws.
Variable cfg : config.

Lemma transmit_laws s r : ph s = PIdle -> took s (fst (transmit s r)) (snd (transmit s r)) [rq_id r].
Proof.
  intros Hp.
  assert (Hfin : forall s0 res pre, txid s0 = fst (txid_next (txid s)) -> queue s0 = queue s -> blocked s0 = blocked s ->
            wire_ids pre = [] -> stamps pre = [snd (txid_next (txid s))] ->
            took s (fst (emit pre (finish s0 r res))) (snd (emit pre (finish s0 r res))) [rq_id r]).
  { intros s0 res pre Ht Hq Hb Hpw Hps. destruct (finish_summary s0 r res) as (Hi & Hw & Hs & Ht' & Hh & H).
    assert (Hwi : wire_ids (snd (emit pre (finish s0 r res))) = []) by (cbn [emit snd]; rewrite wire_ids_app, Hpw, Hw; reflexivity).
    split; [|split; [|left; exact Hwi]].
    - right. cbn [emit fst snd]. rewrite stamps_app, Hps, Hs. split; [reflexivity|congruence].
    - rewrite Hwi. cbn [app emit fst]. apply sub_skip. unfold waiting. rewrite Hp, (writing_nil _ Hi). cbn [writing app].
      destruct H as [(_ & -> & -> & _)|(_ & -> & -> & _)]; [rewrite Hq, Hb; apply subseq_refl|constructor]. }
  destruct (transmit_transmits s r) as [_|_ _| |u].
  - (* tm_unformattable *) apply Hfin; reflexivity.
  - (* tm_write_failed *) apply Hfin; reflexivity.
  - (* tm_written *) split; [right; split; reflexivity|]. split.
    + unfold waiting. cbn. rewrite Hp. cbn. apply subseq_refl.
    + right. eexists r, _, _. split; [reflexivity|]. split; [reflexivity|]. split; [reflexivity|].
      split; [left; exact Hp|]. split; [reflexivity|]. split; [|intros _; left; reflexivity].
      intros tx' id' [X|[X|[]]]; [discriminate|inversion X; auto].
  - (* tm_writing *) split; [right; split; reflexivity|]. split; [|left; reflexivity].
    unfold waiting. cbn. rewrite Hp. cbn. apply subseq_refl.
Qed.

Lemma transmit_entersw s r : entersw s (fst (transmit s r)) (snd (transmit s r)).
Proof.
  assert (Hfin : forall s0 res pre, entersw s (fst (emit pre (finish s0 r res))) (snd (emit pre (finish s0 r res)))).
  { intros s0 res pre. apply entersw_nil, (summary_inflight _ _ _ (finish_summary s0 r res)). }
  destruct (transmit_transmits s r) as [_|_ _| |u]; try apply Hfin; intros r0 tx0 d0 H; [discriminate H|inversion H; subst; right; left; reflexivity].
Qed.

Lemma take_laws s c : listens (ph s) = true -> took s (fst (take s c)) (snd (take s c)) (queued [c]).
Proof.
  intros Hl. assert (Hwr : writing (ph s) = []) by (destruct (ph s); try discriminate; reflexivity).
  destruct (take_has_shape s c Hl) as [c s1 _ Hsc Hp|r _|c [s' o] _ H|r Hp].
  - (* tsh_set *) apply took_nochange; try reflexivity; [apply (same_chan_txid _ _ Hsc)|].
    unfold waiting. cbn [fst]. rewrite Hp, (same_chan_queue _ _ Hsc), (same_chan_blocked _ _ Hsc). reflexivity.
  - (* tsh_fail_fast *) apply took_nochange; reflexivity.
  - (* tsh_summary *) apply (summary_took s s s' o _ _ H); auto.
  - (* tsh_transmit *) exact (transmit_laws s r Hp).
Qed.

Lemma take_entersw s c : listens (ph s) = true -> entersw s (fst (take s c)) (snd (take s c)).
Proof.
  intros Hl. destruct (take_has_shape s c Hl) as [c s1 _ _ Hp|r _|c r _ H|r _].
  - (* tsh_set *) apply entersw_same, Hp.
  - (* tsh_fail_fast *) apply entersw_same. reflexivity.
  - (* tsh_summary *) apply entersw_nil, (summary_inflight _ _ _ H).
  - (* tsh_transmit *) apply transmit_entersw.
Qed.

Lemma written_laws s s0 r tx u : ph s = PWriting r tx u -> quiet s s0 -> now s0 = now s ->
  laws s (fst (written s0 r tx)) (snd (written s0 r tx)) [].
Proof.
  intros Eph Hq Hn. unfold written. cbn [fst snd]. rewrite Hn. split; [left; split; [reflexivity|exact (quiet_txid _ _ Hq)]|]. split.
  * unfold fifo_law, waiting. cbn. rewrite (quiet_queue _ _ Hq), (quiet_blocked _ _ Hq), Eph. cbn. rewrite app_nil_r. apply subseq_refl.
  * right. exists r, tx, (now s + rq_timeout r). split; [reflexivity|]. split; [reflexivity|]. split; [reflexivity|].
    split; [right; exists u; exact Eph|]. split; [reflexivity|]. split; [|intros X; rewrite Eph in X; discriminate].
    intros tx' id' [X|[]]. inversion X; auto.
Qed.

Theorem step_laws s e : laws s (fst (step cfg s e)) (snd (step cfg s e)) (submitted_of e).
Proof.
  destruct (step_has_shape cfg s e) as [c st _|c st _|c st _ _ Eb|c st _ _|e s' He Hq|c q Hl Hq|e [s' o] He H|e s0 r tx u He Hp Hq Hn];
    try (replace (submitted_of e) with (@nil nat) by (destruct e; try reflexivity; discriminate He)).
  - (* ssh_nohandle *) apply laws_nochange; reflexivity.
  - (* ssh_dropped *) apply laws_nochange; try reflexivity; [apply wire_ids_drop|apply stamps_drop].
  - (* ssh_queued *) replace (submitted_of (EvSubmit c st)) with (queued [c]) by (destruct c; reflexivity).
    split; [left; split; reflexivity|]. split; [|left; reflexivity]. unfold fifo_law, waiting. cbn [fst snd ph queue blocked set_chan wire_ids flat_map app]. rewrite Eb.
    rewrite queued_app. change (queued []) with (@nil nat). rewrite !app_nil_r, <- app_assoc. apply subseq_refl.
  - (* ssh_blocked *) replace (submitted_of (EvSubmit c st)) with (queued [c]) by (destruct c; reflexivity).
    split; [left; split; reflexivity|]. split; [|left; reflexivity]. unfold fifo_law, waiting. cbn.
    rewrite queued_app, <- !app_assoc. apply subseq_refl.
  - (* ssh_quiet *) apply laws_nochange; try reflexivity; [apply (quiet_txid _ _ Hq)|].
    unfold waiting. cbn [fst]. rewrite (quiet_ph _ _ Hq), (quiet_queue _ _ Hq), (quiet_blocked _ _ Hq). reflexivity.
  - (* ssh_take *) apply (took_popped s c q _ _ Hl Hq), take_laws, Hl.
  - (* ssh_summary *) exact (summary_laws s s' o _ [] H).
  - (* ssh_written *) exact (written_laws s s0 r tx u Hp Hq Hn).
Qed.

Lemma step_wire s e : wire_law s (fst (step cfg s e)) (snd (step cfg s e)).
Proof. apply step_laws. Qed.

Theorem step_entersw s e : entersw s (fst (step cfg s e)) (snd (step cfg s e)).
Proof.
  destruct (step_has_shape cfg s e) as [c st _|c st _|c st _ _ _|c st _ _|e s' _ Hq|c q Hl _|e r _ H|e s0 r tx u _ _ _ _].
  - (* ssh_nohandle *) apply entersw_same. reflexivity.
  - (* ssh_dropped *) apply entersw_same. reflexivity.
  - (* ssh_queued *) apply entersw_same. reflexivity.
  - (* ssh_blocked *) apply entersw_same. reflexivity.
  - (* ssh_quiet *) apply entersw_same, (quiet_ph _ _ Hq).
  - (* ssh_take *) exact (take_entersw (popped s q) c Hl).
  - (* ssh_summary *) apply entersw_nil, (summary_inflight _ _ _ H).
  - (* ssh_written *) intros r0 tx0 d0 H. discriminate H.
Qed.

End Laws.

Fixpoint submitted (es : list event) : list nat :=
  match es with [] => [] | e :: r => submitted_of e ++ submitted r end.

Section Runs.
Variable cfg : config.

Lemma run_txid : forall es s k t, txid s < 65536 ->
  nth_error (stamps (snd (run cfg s es))) k = Some t -> t = (txid s + N.of_nat k) mod 65536.
Proof.
  induction es as [|e es IH]; intros s k t Hv; [destruct k; discriminate|]. rewrite run_cons. cbn [snd]. rewrite stamps_app.
  destruct (step_laws cfg s e) as (Ht & _ & _). specialize (IH (fst (step cfg s e))).
  destruct (txid_next_spec (txid s) Hv) as (E1 & E2 & E3).
  destruct Ht as [[-> Ht]|[-> Ht]]; cbn [app].
  - rewrite <- Ht. apply IH. rewrite Ht. exact Hv.
  - destruct k as [|k]; cbn [nth_error].
    + intros [= <-]. rewrite E1, N.mod_small; lia.
    + intros H. apply IH in H; [|rewrite Ht; exact E3]. rewrite H, Ht, E2, N.add_mod_idemp_l by lia. f_equal. lia.
Qed.

Lemma run_fifo : forall es s w sub, Subseq (w ++ waiting s) sub ->
  let '(s', o) := run cfg s es in Subseq (w ++ wire_ids o ++ waiting s') (sub ++ submitted es).
Proof.
  induction es as [|e es IH]; intros s w sub H; cbn [run submitted].
  - cbn [wire_ids flat_map app]. rewrite app_nil_r. exact H.
  - destruct (step_laws cfg s e) as (_ & Hf & _). destruct (step cfg s e) as [s1 o1]. cbn [fst snd] in Hf.
    assert (H1 : Subseq ((w ++ wire_ids o1) ++ waiting s1) (sub ++ submitted_of e)).
    { rewrite <- app_assoc. eapply subseq_trans; [apply subseq_app_head; exact Hf|].
      rewrite app_assoc. apply subseq_app_same. exact H. }
    specialize (IH s1 (w ++ wire_ids o1) (sub ++ submitted_of e) H1). destruct (run cfg s1 es) as [s2 o2].
    rewrite wire_ids_app, <- !app_assoc in *. exact IH.
Qed.

Lemma inflight_progress s e r tx d : ph s = PInFlight r tx d ->
  ph (fst (step cfg s e)) = PInFlight r tx d \/ In (rq_id r) (completed (snd (step cfg s e))).
Proof.
  intros Eph. destruct (step_has_shape cfg s e) as [c st _|c st _|c st _ _ _|c st _ _|e s' _ Hq|c q Hl _|e r0 _ H|e s0 r0 tx0 u _ Hp _ _].
  - (* ssh_nohandle *) left. exact Eph.
  - (* ssh_dropped *) left. exact Eph.
  - (* ssh_queued *) left. exact Eph.
  - (* ssh_blocked *) left. exact Eph.
  - (* ssh_quiet *) left. cbn [fst]. rewrite (quiet_ph _ _ Hq). exact Eph.
  - (* ssh_take *) rewrite Eph in Hl. discriminate Hl.
  - (* ssh_summary *) right. apply (summary_completes _ _ _ _ H). rewrite Eph. left. reflexivity.
  - (* ssh_written *) rewrite Eph in Hp. discriminate Hp.
Qed.

End Runs.

Section Statements.
Variable cfg : config.

Lemma c11_txid mt hn rmin rmax es k t :
  nth_error (stamps (snd (run cfg (init hn mt rmin rmax) es))) k = Some t -> t = txid_spec (N.of_nat k).
Proof.
  intros H. apply (run_txid cfg es (init hn mt rmin rmax)) in H; [exact H|cbn; lia].
Qed.

Lemma c11_distinct mt hn rmin rmax es k a b :
  let st := stamps (snd (run cfg (init hn mt rmin rmax) es)) in
  nth_error st k = Some a -> nth_error st (S k) = Some b -> a <> b.
Proof.
  intros st Ha Hb. apply c11_txid in Ha. apply c11_txid in Hb. subst. unfold txid_spec. rewrite Nat2N.inj_succ. lia.
Qed.

Lemma c11_mismatch s r t d tx k : ph s = PInFlight r t d -> tx <> t ->
  (partial s = None -> step cfg s (EvFrame tx k) = (s, [])) /\
  (partial s = Some (tx, k) -> step cfg s EvTail = (set_partial s None, [])).
Proof.
  intros Eph Hne. assert (E : (tx =? t) = false) by (apply N.eqb_neq; exact Hne).
  split; intros Hp; cbn [step]; rewrite Eph, Hp; cbn [reading]; unfold on_frame; cbn [ph set_partial]; rewrite Eph, E; reflexivity.
Qed.

End Statements.
