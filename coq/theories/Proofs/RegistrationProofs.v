(* A refused rodbus_device_map_add_endpoint (unit id already registered) has no effect. *)
From Coq Require Import List String.
From Rodbus Require Import Gen.LockScope Spec.FfiWireSpec Model.FfiWire.
Import ListNotations.

Theorem refused_registration W model units tx ops rest :
  run_items W model units tx (IDup ops :: rest) =
  (let '(out, u') := run_items W model units tx rest in ("dup=F"%string :: out, u')).
Proof.
  (* run_items branches on the generated flag duplicate_unit_refused_before_any_effect (refused_first):
     were the contains_key check to come after the configure callback, this would not compute *)
  reflexivity.
Qed.

Theorem refused_first : duplicate_unit_refused_before_any_effect = true.
Proof. reflexivity. Qed.
