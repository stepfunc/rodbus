(* Proofs for C18 over the generated tables of Gen/FfiTables.v: exhaustive case analysis on the
   generated inductives; the exception bytes; the completion chain. *)
From Coq Require Import NArith List String Bool.
From Rodbus Require Import Gen.FfiTables Model.Ffi Spec.FfiSpec.
From Rodbus Require Spec.CAbiSpec.
Import ListNotations.
Local Open Scope string_scope.

Lemma names_request_error : forall e,
  match e with
  | RRE_Exception x => exception_name_ok (name_rust_exception_code x) (name_ffi_request_error (request_error_to_ffi e))
  | _ => request_error_name_ok (name_rust_request_error e) (name_ffi_request_error (request_error_to_ffi e))
  end = true.
Proof. destruct e as [|x| | | | | | |]; try reflexivity. destruct x; reflexivity. Qed.

Lemma request_error_never_ok : forall e, request_error_to_ffi e <> FRE_Ok.
Proof. destruct e as [|x| | | | | | |]; try discriminate. destruct x; discriminate. Qed.

Lemma names_try_send : try_send_error_to_channel_error TSE_Full = RFC_ChannelFull /\ try_send_error_to_channel_error TSE_Closed = RFC_ChannelClosed.
Proof. split; reflexivity. Qed.

Local Open Scope N_scope.
(* the tables only single out codes below 16: four bits decide, every other byte is Unknown *)
Theorem exception_bytes : forall b,
  name_rust_exception_code (exception_from_u8 b) = standard_exception_name b /\
  name_ffi_request_error (request_error_to_ffi (RRE_Exception (exception_from_u8 b))) = ("ModbusException" ++ standard_exception_name b)%string /\
  exception_to_u8 (exception_from_u8 b) = b.
Proof.
  destruct b as [|p]; [repeat split|].
  do 4 (destruct p as [p|p|]; try (repeat split; reflexivity)).
Qed.

(* the Spec of the C-ABI client path (Spec/CAbiSpec.v) names the same nine codes *)
Lemma standard_names_agree : forall b,
  match CAbiSpec.exception_standard_name b with Some n => n | None => "Unknown"%string end = standard_exception_name b.
Proof. destruct b as [|p]; [reflexivity|]. do 4 (destruct p as [p|p|]; try reflexivity). Qed.

(* the C-side enum values agree with the protocol codes of the same-named Rust variants *)
Lemma modbus_exception_values : forall e, e <> FME_Unknown ->
  exists r, convert_to_result false e 0 = Some r /\ exception_to_u8 r = ffi_modbus_exception_value e
            /\ name_rust_exception_code r = name_ffi_modbus_exception e.
Proof. destruct e; intros H; try congruence; eexists; repeat split; reflexivity. Qed.

Lemma convert_spec : forall s e r,
  Some (reply_exception_byte (convert_to_result s e r)) = write_result_spec s (name_ffi_modbus_exception e) r.
Proof. intros [] e r; destruct e; reflexivity. Qed.

Lemma wrappers_shape :
  map ww_method write_wrappers = ["write_single_coil"; "write_single_register"; "write_multiple_coils"; "write_multiple_registers"]%string
  /\ forallb (fun w => String.eqb (ww_method w) (ww_callback w)) write_wrappers = true
  /\ forallb (fun w => match ww_some w with UsesConvertToResult => true | _ => false end) write_wrappers = true
  /\ forallb (fun w => match ww_none w with ErrException REC_IllegalFunction => true | _ => false end) write_wrappers = true.
Proof. vm_compute. repeat split; reflexivity. Qed.

Theorem write_result_forwarded : forall w, In w write_wrappers -> forall s e r,
  wrapper_result w (Some (s, e, r)) = Some (convert_to_result s e r) /\
  option_map reply_exception_byte (wrapper_result w (Some (s, e, r))) = write_result_spec s (name_ffi_modbus_exception e) r /\
  ww_callback w = ww_method w.
Proof.
  intros w Hin s e r. destruct wrappers_shape as (_ & Hcb & Hsome & _).
  rewrite forallb_forall in Hcb, Hsome. specialize (Hcb w Hin). specialize (Hsome w Hin).
  unfold wrapper_result. destruct (ww_some w); [|discriminate]. cbn [option_map].
  rewrite convert_spec. apply String.eqb_eq in Hcb. auto.
Qed.

Theorem write_result_callback_unset : forall w, In w write_wrappers ->
  wrapper_result w None = Some (Some REC_IllegalFunction).
Proof.
  intros w Hin. destruct wrappers_shape as (_ & _ & _ & Hnone). rewrite forallb_forall in Hnone. specialize (Hnone w Hin).
  unfold wrapper_result. destruct (ww_none w) as [e|]; [|discriminate]. destruct e; try discriminate. reflexivity.
Qed.

Local Open Scope string_scope.
Definition shape_ok (ft : future_type) : Prop :=
  ft_on_drop ft = Some RRE_Shutdown /\ ft_complete_ok_calls_on_complete ft = true /\ ft_complete_err_calls_on_failure_into ft = true.

Lemma future_types_ok : forall ft, In ft future_types -> shape_ok ft.
Proof. intros ft H. cbn in H. destruct H as [<-|[<-|[<-|[]]]]; repeat split. Qed.

Lemma fire_ok ft r : shape_ok ft ->
  fire ft r = match r with ROk => OnComplete | RErr e => OnFailure (request_error_to_ffi e) end.
Proof. intros (_ & H1 & H2). unfold fire. rewrite H1, H2. destruct r; reflexivity. Qed.

Lemma drop_wrapped ft : shape_ok ft -> drop_stage ft Wrapped = [OnFailure FRE_Shutdown].
Proof.
  intros H. pose proof (fire_ok ft (RErr RRE_Shutdown) H) as F. destruct H as (H0 & _).
  cbn [drop_stage sfio_drop sfio_complete snd]. rewrite H0. cbn [sfio_complete snd]. rewrite F. reflexivity.
Qed.

Lemma complete_in_promise ft k r : shape_ok ft ->
  promise_complete ft (InPromise k) r = (Spent, [match r with ROk => OnComplete | RErr e => OnFailure (request_error_to_ffi e) end]).
Proof.
  intros H. unfold promise_complete, sfio_complete, sfio_drop. rewrite (fire_ok ft r H). reflexivity.
Qed.

Lemma drop_in_promise ft k : shape_ok ft -> promise_drop_error k = Some RRE_Shutdown ->
  drop_stage ft (InPromise k) = [OnFailure FRE_Shutdown].
Proof.
  intros H Hk. cbn [drop_stage]. rewrite Hk, (complete_in_promise ft k _ H). reflexivity.
Qed.

Lemma run_task_spent ft ops : run_task ft Spent ops = [].
Proof.
  induction ops as [|[r|] rest IH]; cbn [run_task drop_stage promise_complete]; [reflexivity| |reflexivity].
  cbn [app]. exact IH.
Qed.

(* an accepted command: whatever the client task does with it (complete it any number of times, drop
   it early, or never touch it), the C callback fires exactly once, with the first completion *)
Lemma run_task_once ft k ops : shape_ok ft -> promise_drop_error k = Some RRE_Shutdown ->
  run_task ft (InPromise k) ops = [fire ft (first_completion ops)].
Proof.
  intros H Hk. destruct ops as [|[r|] rest]; cbn [run_task first_completion].
  - rewrite (drop_in_promise ft k H Hk), (fire_ok ft _ H). reflexivity.
  - rewrite (complete_in_promise ft k r H), run_task_spent, (fire_ok ft r H). reflexivity.
  - rewrite (drop_in_promise ft k H Hk), (fire_ok ft _ H). reflexivity.
Qed.

Definition passes_validation (env : call_env) : Prop := null_args env = [] /\ failing_validation env = None.

(* expected outcome of a call that passed parameter validation *)
Definition expected (ft : future_type) (is_read : bool) (env : call_env) : ffi_param_error * list cb_event :=
  if is_read && over_limit env then (FPE_InvalidRange, [OnFailure FRE_Shutdown])
  else match send env with
       | Accepted => (FPE_Ok, [fire ft (first_completion (task env))])
       | QueueFull => (FPE_TooManyRequests, [OnFailure FRE_Shutdown])
       | ChannelClosed => (FPE_Shutdown, [OnFailure FRE_Shutdown])
       end.

Definition is_read (request : string) : bool :=
  String.eqb request "read_coils" || String.eqb request "read_discrete_inputs"
  || String.eqb request "read_holding_registers" || String.eqb request "read_input_registers".

(* The shape all client_channel_<request> functions share: null checks and validations, then
   sfio_promise::wrap, then the FfiChannel method, then Ok; the FfiChannel method: limit checks and
   one Promise::new in either order, then try_send. *)
Fixpoint after_checks (steps : list call_step) : list call_step :=
  match steps with
  | (CheckNull _ | Validate _) :: rest => after_checks rest
  | _ => steps
  end.

Fixpoint channel_shape (made : bool) (steps : list channel_step) : bool :=
  match steps with
  | LimitCheck _ :: rest => channel_shape made rest
  | MakePromise :: rest => negb made && channel_shape true rest
  | [TrySend] => made
  | _ => false
  end.

Fixpoint limited (steps : list channel_step) : bool :=
  match steps with
  | [] => false
  | LimitCheck _ :: _ => true
  | _ :: rest => limited rest
  end.

Definition validation_reported (s : call_step) : bool :=
  match s with
  | Validate w => match validation_error w with FPE_Ok => false | _ => true end
  | _ => true
  end.

(* In order: a null channel is caught first (so nothing is owned yet); what follows the checks is
   wrap / send / Ok with the FfiChannel method of the function's own name; every validation has an
   error code other than Ok; the FfiChannel method makes its promise exactly once, before try_send;
   it checks the read limit iff the request is a read; the promise of its kind fails with Shutdown
   when dropped. *)
Definition call_ok (rq : string * list call_step) : Prop :=
  hd_error (snd rq) = Some (CheckNull "channel") /\
  after_checks (snd rq) = [WrapPromise; SendViaChannel (fst rq) true; ReturnOk] /\
  forallb validation_reported (snd rq) = true /\
  channel_shape false (channel_steps (fst rq)) = true /\
  limited (channel_steps (fst rq)) = is_read (fst rq) /\
  promise_drop_error (promise_kind (channel_method_of (fst rq))) = Some RRE_Shutdown.

(* the one evaluation of the generated tables client_calls, channel_methods, rodbus_promise_drop *)
Lemma client_calls_ok : Forall call_ok client_calls.
Proof. repeat constructor. Qed.

Lemma client_call_ok rq : In rq client_calls -> call_ok rq.
Proof. apply Forall_forall, client_calls_ok. Qed.

Lemma run_call_checks_pass ft env st steps : passes_validation env ->
  run_call ft env st steps = run_call ft env st (after_checks steps).
Proof.
  intros [Hn Hv]. induction steps as [|s rest IH]; [reflexivity|].
  destruct s; try reflexivity; cbn [run_call after_checks]; rewrite ?Hn, ?Hv; exact IH.
Qed.

(* a failing validation among the checks returns its error while the callback is still the bare struct *)
Lemma run_call_rejects ft env w : null_args env = [] -> failing_validation env = Some w ->
  forall steps, In (Validate w) steps -> ~ In (Validate w) (after_checks steps) ->
  run_call ft env Bare steps = (validation_error w, []).
Proof.
  intros Hn Hv. induction steps as [|s rest IH]; intros Hin Hno; [destruct Hin|].
  destruct s; try (exfalso; exact (Hno Hin)); cbn [after_checks] in Hno; cbn [run_call].
  - rewrite Hn. apply IH; [destruct Hin as [E|Hin]; [discriminate E|exact Hin]|exact Hno].
  - rewrite Hv. destruct (String.eqb_spec what w) as [->|Hne]; [reflexivity|].
    apply IH; [destruct Hin as [E|Hin]; [injection E as E; contradiction|exact Hin]|exact Hno].
Qed.

(* whichever of the two owns the callback when FfiChannel returns early, dropping it fires on_failure(Shutdown) once *)
Lemma run_channel_shape ft kind env : shape_ok ft -> promise_drop_error kind = Some RRE_Shutdown ->
  forall steps made, channel_shape made steps = true ->
  run_channel ft kind env (if made then InPromise kind else Wrapped) steps =
    if limited steps && over_limit env then (Some RFC_BadRange, [OnFailure FRE_Shutdown])
    else match send env with
         | Accepted => (None, [fire ft (first_completion (task env))])
         | QueueFull => (Some RFC_ChannelFull, [OnFailure FRE_Shutdown])
         | ChannelClosed => (Some RFC_ChannelClosed, [OnFailure FRE_Shutdown])
         end.
Proof.
  intros Hft Hk.
  assert (D : forall made : bool, drop_stage ft (if made then InPromise kind else Wrapped) = [OnFailure FRE_Shutdown])
    by (intros []; [apply drop_in_promise|apply drop_wrapped]; assumption).
  induction steps as [|s rest IH]; intros made Hs; [discriminate|].
  destruct s; cbn [channel_shape] in Hs; cbn [run_channel limited andb]; [| | |discriminate].
  - rewrite D, (IH made Hs). destruct (over_limit env); [reflexivity|]. rewrite andb_false_r. reflexivity.
  - destruct made; [discriminate|]. exact (IH true Hs).
  - destruct rest; [|discriminate]. subst made. rewrite (run_task_once ft kind _ Hft Hk), (D true).
    destruct (send env); reflexivity.
Qed.

Theorem once_all : forall rq, call_ok rq -> forall ft, shape_ok ft -> forall env, passes_validation env ->
  ffi_call ft rq env = expected ft (is_read (fst rq)) env.
Proof.
  intros rq (_ & Hs & _ & Hc & Hl & Hk) ft Hft env Hp.
  unfold ffi_call. rewrite (run_call_checks_pass ft env Bare _ Hp), Hs. cbn [run_call].
  rewrite (run_channel_shape ft _ env Hft Hk _ false Hc : run_channel ft _ env Wrapped _ = _), Hl.
  unfold expected. destruct (is_read (fst rq) && over_limit env); [reflexivity|]. destruct (send env); reflexivity.
Qed.

Corollary once_exactly : forall rq, call_ok rq -> forall ft, shape_ok ft -> forall env, passes_validation env ->
  exists ev, snd (ffi_call ft rq env) = [ev] /\ ev <> ShapeUnknown.
Proof.
  intros rq Hok ft Hft env Hp. rewrite (once_all rq Hok ft Hft env Hp). unfold expected.
  destruct (is_read (fst rq) && over_limit env); [eexists; split; [reflexivity|discriminate]|].
  destruct (send env); cbn [snd]; try (eexists; split; [reflexivity|discriminate]).
  exists (fire ft (first_completion (task env))). split; [reflexivity|]. rewrite (fire_ok ft _ Hft).
  destruct (first_completion (task env)); discriminate.
Qed.

(* calls rejected by parameter validation: the error code is returned and NO completion callback fires
   (observation of DESIGN.md section 7) *)
Theorem param_error_no_callback : forall rq, call_ok rq -> forall ft env,
  (In "channel" (null_args env) -> ffi_call ft rq env = (FPE_NullParameter, [])) /\
  (null_args env = [] -> forall w, failing_validation env = Some w -> In (Validate w) (snd rq) ->
     ffi_call ft rq env = (validation_error w, []) /\ validation_error w <> FPE_Ok).
Proof.
  intros rq (Hh & Hs & Hv & _) ft env.
  unfold ffi_call. split.
  - intros Hnull.
    assert (E : existsb (String.eqb "channel") (null_args env) = true)
      by (apply existsb_exists; exists "channel"; split; [assumption|apply String.eqb_refl]).
    destruct (snd rq) as [|s rest]; [discriminate Hh|]. injection Hh as ->. cbn [run_call]. rewrite E. reflexivity.
  - intros Hn w Hw Hval. split.
    + apply (run_call_rejects ft env w Hn Hw _ Hval). rewrite Hs. intros [E|[E|[E|[]]]]; discriminate E.
    + rewrite forallb_forall in Hv. specialize (Hv _ Hval). cbn [validation_reported] in Hv.
      intros E. rewrite E in Hv. discriminate Hv.
Qed.

Fixpoint dedup (l : list (string * string)) : list (string * string) :=
  match l with
  | [] => []
  | x :: r => if existsb (fun y => String.eqb (fst x) (fst y) && String.eqb (snd x) (snd y)) r then dedup r else x :: dedup r
  end.
