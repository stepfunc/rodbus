(* Lemmas about Model/Buffer.v: under the representation invariant wf (end <= capacity) every
   accessor called within its guard returns Ok (never Err, never Panic), read_some always makes
   room for at least one byte when fewer than `cap` bytes are pending (C05_never_full), and it
   only ever appends a prefix of the offered chunk (no byte lost / duplicated). *)
From Coq Require Import NArith List Arith Lia.
From Rodbus Require Import Base.Outcome Gen.Consts Model.Buffer.
Import ListNotations.

Definition wf (b : buf) : Prop := b_end b <= cap.

Ltac ucap := unfold wf, b_end, buf_len, cap, buffer_capacity, usize_safe in *.

Lemma wf_new : wf buf_new.
Proof. ucap. cbn. lia. Qed.

Lemma uadd_ok a c : a + c <= usize_safe -> uadd a c = Some (a + c).
Proof. intros H. unfold uadd. destruct (Nat.leb_spec (a + c) usize_safe); [reflexivity|lia]. Qed.

Lemma consume_0 b : consume 0 b = b.
Proof. destruct b as [bb pp]; unfold consume; cbn [b_begin b_pend skipn]. f_equal. lia. Qed.
Lemma consume_wf k b : wf b -> k <= buf_len b -> wf (consume k b).
Proof. ucap. unfold consume; cbn [b_begin b_pend]. rewrite skipn_length. lia. Qed.
Lemma skipn_skipn' {A} : forall a b (l : list A), skipn a (skipn b l) = skipn (b + a) l.
Proof. intros a b; revert a. induction b as [|b IH]; intros a l; [reflexivity|]. destruct l; cbn; [destruct a; reflexivity|apply IH]. Qed.
Lemma consume_consume a c b : consume c (consume a b) = consume (a + c) b.
Proof. unfold consume; cbn [b_begin b_pend]. rewrite skipn_skipn'. f_equal. lia. Qed.
Lemma consume_len k b : buf_len (consume k b) = buf_len b - k.
Proof. unfold buf_len, consume; cbn [b_pend]. apply skipn_length. Qed.

Lemma buf_read_ok n b : wf b -> n <= buf_len b -> buf_read n b = (consume n b, Ok (firstn n (b_pend b))).
Proof.
  intros Hwf Hn. unfold buf_read. destruct (Nat.ltb_spec (buf_len b) n); [lia|].
  rewrite uadd_ok by (ucap; lia). destruct (Nat.ltb_spec cap (b_begin b + n)); [ucap; lia|reflexivity].
Qed.
Lemma buf_read_u8_ok b x r : wf b -> b_pend b = x :: r -> buf_read_u8 b = (consume 1 b, Ok x).
Proof.
  intros Hwf Hp. unfold buf_read_u8. rewrite Hp.
  destruct (Nat.leb_spec cap (b_begin b)); [ucap; rewrite Hp in Hwf; cbn in Hwf; lia|].
  rewrite uadd_ok by (ucap; lia). reflexivity.
Qed.
Lemma buf_peek_ok idx b : wf b -> idx < buf_len b -> buf_peek_at idx b = (b, Ok (nth idx (b_pend b) 0%N)).
Proof.
  intros Hwf Hi. unfold buf_peek_at. destruct (Nat.ltb_spec (buf_len b) idx); [lia|].
  rewrite !uadd_ok by (ucap; lia). destruct (Nat.leb_spec cap (b_begin b + idx)); [ucap; lia|].
  destruct (nth_error (b_pend b) idx) eqn:E.
  - now rewrite (nth_error_nth _ _ _ E).
  - apply nth_error_None in E. unfold buf_len in Hi. lia.
Qed.
(* Model/Buffer.v says of peek_at's `Err Stale` (a byte outside begin..end) that the parsers never reach it: inside its guard
   peek_at returns the byte (buf_peek_ok), and the only callers, the RTU sub-parsers, peek inside the guard
   (RtuProofs.rtu_parse_eq rewrites each of their peeks with buf_peek_ok) *)
Lemma buf_peek_not_stale idx b : wf b -> idx < buf_len b -> snd (buf_peek_at idx b) <> Err Stale.
Proof. intros Hwf Hi. now rewrite buf_peek_ok. Qed.

Lemma buf_read_2u8_ok {A} (f : N -> N -> A) b x y r : wf b -> b_pend b = x :: y :: r ->
  bind buf_read_u8 (fun b1 => bind buf_read_u8 (fun b2 => ret (f b1 b2))) b = (consume 2 b, Ok (f x y)).
Proof.
  intros Hwf Hp. unfold bind, ret. rewrite (buf_read_u8_ok b x (y :: r) Hwf Hp).
  assert (Hwf1 : wf (consume 1 b)) by (apply consume_wf; [assumption|unfold buf_len; rewrite Hp; cbn; lia]).
  rewrite (buf_read_u8_ok (consume 1 b) y r Hwf1) by (cbn [consume b_pend]; rewrite Hp; reflexivity).
  rewrite consume_consume. reflexivity.
Qed.
Lemma buf_read_u16_be_ok b x y r : wf b -> b_pend b = x :: y :: r ->
  buf_read_u16_be b = (consume 2 b, Ok (x * 256 + y)%N).
Proof. apply (buf_read_2u8_ok (fun b1 b2 => (b1 * 256 + b2)%N)). Qed.
Lemma buf_read_u16_le_ok b x y r : wf b -> b_pend b = x :: y :: r ->
  buf_read_u16_le b = (consume 2 b, Ok (y * 256 + x)%N).
Proof. apply (buf_read_2u8_ok (fun b1 b2 => (b2 * 256 + b1)%N)). Qed.

Lemma buf_read_no_panic n b : wf b -> snd (buf_read n b) <> Panic.
Proof.
  intros Hwf. unfold buf_read. destruct (Nat.ltb_spec (buf_len b) n); [cbn; discriminate|].
  rewrite uadd_ok by (ucap; lia). destruct (Nat.ltb _ _); cbn; discriminate.
Qed.
Lemma buf_read_u8_no_panic b : wf b -> snd (buf_read_u8 b) <> Panic.
Proof.
  intros Hwf. unfold buf_read_u8. destruct (b_pend b) eqn:E; [cbn; discriminate|].
  destruct (Nat.leb_spec cap (b_begin b)); [cbn; discriminate|]. rewrite uadd_ok by (ucap; lia). cbn; discriminate.
Qed.
Lemma buf_peek_no_panic idx b : wf b -> snd (buf_peek_at idx b) <> Panic.
Proof.
  intros Hwf. unfold buf_peek_at. destruct (Nat.ltb_spec (buf_len b) idx); [cbn; discriminate|].
  rewrite !uadd_ok by (ucap; lia). destruct (Nat.leb _ _); [cbn; discriminate|]. destruct (nth_error _ _); cbn; discriminate.
Qed.

(* what read_some does to the indices before it reads: reset when empty, compact when full *)
Definition prep (b : buf) : buf :=
  let b1 := if buf_is_empty b then {| b_begin := 0; b_pend := b_pend b |} else b in
  if Nat.eqb (b_end b1) cap then {| b_begin := 0; b_pend := b_pend b1 |} else b1.

Lemma prep_pend b : b_pend (prep b) = b_pend b.
Proof. unfold prep. destruct (buf_is_empty b); destruct (Nat.eqb _ _); reflexivity. Qed.

Lemma prep_idem b : prep (prep b) = prep b.
Proof.
  destruct b as [bb [|x pp]]; [reflexivity|]. unfold prep, buf_is_empty, b_end. cbn [b_pend b_begin].
  destruct (Nat.eqb_spec (bb + length (x :: pp)) cap) as [E|E]; cbn [b_pend b_begin].
  - now destruct (Nat.eqb _ cap).
  - now destruct (Nat.eqb_spec (bb + length (x :: pp)) cap).
Qed.

Lemma prep_end b : wf b -> b_end (prep b) <= cap /\ (buf_len b < cap -> b_end (prep b) < cap).
Proof.
  intros Hwf. unfold prep, buf_is_empty. ucap. destruct (b_pend b) eqn:E; cbn [b_pend b_begin length].
  - destruct (Nat.eqb _ _); cbn [b_pend b_begin length]; lia.
  - rewrite E. destruct (Nat.eqb_spec (b_begin b + length (n :: l)) 260); cbn [b_pend b_begin]; rewrite ?E; cbn [length] in *; lia.
Qed.
Lemma prep_wf b : wf b -> wf (prep b).
Proof. intros Hwf. apply prep_end, Hwf. Qed.

(* read_some after prep; read_some_body is by reflexivity because Model/Buffer.read_some is written that way *)
Definition rs_body (b2 : buf) (c : list N) : buf * rs_result :=
  if Nat.ltb cap (b_end b2) then (b2, RsPanic)
  else
    let free := cap - b_end b2 in
    let k := Nat.min free (length c) in
    match k with
    | O => (b2, RsEof)
    | _ => match uadd (b_end b2) k with
           | None => (b2, RsPanic)
           | Some _ => ({| b_begin := b_begin b2; b_pend := b_pend b2 ++ firstn k c |}, RsOk k (skipn k c))
           end
    end.
Lemma read_some_body x c : read_some x c = rs_body (prep x) c.
Proof. reflexivity. Qed.
Lemma read_some_prep b c : read_some (prep b) c = read_some b c.
Proof. rewrite !read_some_body, prep_idem. reflexivity. Qed.

(* C05_never_full: with fewer than cap bytes pending a non-empty chunk always
   yields 1 <= k <= |c| bytes, appended after the pending ones; the leftover is the rest of c *)
Lemma read_some_ok b c :
  wf b -> buf_len b < cap -> c <> [] ->
  exists k b'', read_some b c = (b'', RsOk k (skipn k c)) /\ 1 <= k <= length c /\
                b_pend b'' = b_pend b ++ firstn k c /\ wf b''.
Proof.
  intros Hwf Hn Hc. destruct (prep_end b Hwf) as [_ He]. specialize (He Hn).
  rewrite read_some_body, <- (prep_pend b). unfold rs_body. destruct (Nat.ltb_spec cap (b_end (prep b))); [lia|].
  assert (Hlen : 1 <= length c) by (destruct c; [congruence|cbn; lia]).
  destruct (Nat.min (cap - b_end (prep b)) (length c)) as [|k'] eqn:Ek; [lia|].
  rewrite uadd_ok by (ucap; lia). eexists _, _. split; [reflexivity|]. split; [lia|]. split; [reflexivity|].
  unfold wf, b_end in *; cbn [b_begin b_pend]. rewrite app_length, firstn_length. lia.
Qed.

(* a 0-byte read, or one that meets the end of the script *)
Lemma read_some_nil_prep b : wf b -> read_some b [] = (prep b, RsEof).
Proof.
  intros Hwf. pose proof (prep_wf b Hwf) as Hp. rewrite read_some_body. unfold rs_body.
  destruct (Nat.ltb_spec cap (b_end (prep b))); [unfold wf in Hp; lia|]. cbn [length]. now rewrite Nat.min_0_r.
Qed.
Lemma read_some_nil b : wf b -> exists b2, read_some b [] = (b2, RsEof) /\ b_pend b2 = b_pend b /\ wf b2.
Proof. intros Hwf. exists (prep b). split; [now apply read_some_nil_prep|]. split; [apply prep_pend|now apply prep_wf]. Qed.

Lemma read_some_no_panic b c : wf b -> snd (read_some b c) <> RsPanic.
Proof.
  intros Hwf. pose proof (prep_wf b Hwf) as Hp. rewrite read_some_body. unfold rs_body.
  destruct (Nat.ltb_spec cap (b_end (prep b))); [unfold wf in Hp; lia|].
  destruct (Nat.min (cap - b_end (prep b)) (length c)) as [|k'] eqn:Ek; [cbn; discriminate|].
  rewrite uadd_ok by (ucap; lia). cbn; discriminate.
Qed.
