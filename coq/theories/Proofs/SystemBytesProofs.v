(* The byte-level session with commands against C01_System's server_system: dropping and
   re-entering next_frame at command arrivals loses nothing (reader cancel-safety, C05/C06), level
   changes are unobservable, Shutdown / a closed channel cut the run. *)
From Coq Require Import NArith List.
From Rodbus Require Base.Frame Base.ServerTypes Base.ServerRun Model.Reader Model.Server Model.SystemServer Model.SystemServerBytes.
Import ListNotations.
Module F := Rodbus.Base.Frame.
Module S := Rodbus.Base.ServerTypes.
Module R := Rodbus.Base.ServerRun.
Import SystemServer SystemServerBytes.

Section Sys.
Context {St : Type}.
Variable H : S.handler St.

Lemma session_app l a : forall fs1 fs2 units,
  Server.session H l a units (fs1 ++ fs2) =
    (let '(rs1, u1, lg1, e1) := Server.session H l a units fs1 in
     match e1 with
     | Server.SOpen => let '(rs2, u2, lg2, e2) := Server.session H l a u1 fs2 in (rs1 ++ rs2, u2, lg1 ++ lg2, e2)
     | _ => (rs1, u1, lg1, e1)
     end).
Proof.
  induction fs1 as [|f fs1 IH]; intros fs2 units.
  - cbn [app Server.session]. destruct (Server.session H l a units fs2) as [[[rs u] lg] e]. reflexivity.
  - cbn [app Server.session]. destruct (Server.handle_frame H l a units f) as [[[bytes|e|] units'] lg]; try reflexivity.
    rewrite IH. destruct (Server.session H l a units' fs1) as [[[rs1 u1] lg1] e1].
    destruct e1; try reflexivity.
    destruct (Server.session H l a u1 fs2) as [[[rs2 u2] lg2] e2]. rewrite <- app_assoc. reflexivity.
Qed.

Lemma frames_in_app i1 i2 : frames_in (i1 ++ i2) = frames_in i1 ++ frames_in i2.
Proof. unfold frames_in, Reader.frames_of. rewrite flat_map_app, map_app. reflexivity. Qed.

Definition no_end (evs : list bevent) : Prop :=
  Forall (fun ev => match ev with BCommand R.Shutdown | BClosed => False | _ => True end) evs.

(* with level changes only, the byte-level run is run_cancel on the chunks followed by the session:
   each level change drops the waiting next_frame, which is re-entered from the reader's state *)
Lemma run_bytes_cancel l a : forall evs r units d fi, no_end evs ->
  let '(rs, u, lg, _, se, b) := run_bytes H l a r units d evs (Some fi) in
  let '(items, e) := Reader.run_cancel r (chunks_of evs) fi in
  (rs, u, lg, se) = Server.session H l a units (frames_in items) /\ (se = Server.SOpen -> b = BReader e).
Proof.
  induction evs as [|ev rest IH]; intros r units d fi Hne.
  - cbn [run_bytes chunks_of flat_map Reader.run_cancel].
    destruct (Reader.run_reader (Reader.run_fuel r []) false r [] fi) as [items e].
    destruct (Server.session H l a units (frames_in items)) as [[[rs u] lg] se]. split; [reflexivity|].
    intros ->. reflexivity.
  - inversion Hne as [|? ? Hev Hrest]; subst. destruct ev as [c|[x|]|]; try contradiction.
    + cbn [run_bytes chunks_of flat_map app Reader.run_cancel]. fold (chunks_of rest).
      destruct (Reader.run_reader_st (Reader.run_fuel r [c]) r [c] F.FinPending) as [r1 [items e1]].
      destruct (Server.session H l a units (frames_in items)) as [[[rs u] lg] se] eqn:Es.
      destruct e1.
      (* the reader ended on this chunk: both sides stop here *)
      1-2, 4-5: destruct se; (split; [symmetry; exact Es|]); [intros _; reflexivity|discriminate|discriminate].
      (* EndPending: the call waits; the rest of the events follows, unless handle_frame failed *)
      destruct (Reader.run_cancel r1 (chunks_of rest) fi) as [l2 e2] eqn:Ec. rewrite frames_in_app, session_app, Es.
      destruct se; [|split; [reflexivity|discriminate]..].
      specialize (IH r1 u d fi Hrest). rewrite Ec in IH.
      destruct (run_bytes H l a r1 u d rest (Some fi)) as [[[[[rs' u'] lg'] d'] se'] b'].
      destruct IH as [IH1 IH2]. rewrite <- IH1. split; [reflexivity|exact IH2].
    + cbn [run_bytes chunks_of flat_map app]. fold (chunks_of rest). apply IH. exact Hrest.
Qed.

Lemma run_bytes_strip l a : forall evs r units d d' fi,
  let '(rs, u, lg, _, se, b) := run_bytes H l a r units d evs fi in
  let '(rs2, u2, lg2, _, se2, b2) := run_bytes H l a r units d' (bstrip evs) fi in
  (rs, u, lg, se, b) = (rs2, u2, lg2, se2, b2).
Proof.
  induction evs as [|ev rest IH]; intros r units d d' fi.
  - cbn [bstrip run_bytes]. destruct fi as [f|]; [|reflexivity].
    destruct (Reader.run_reader (Reader.run_fuel r []) false r [] f) as [items e].
    destruct (Server.session H l a units (frames_in items)) as [[[rs u] lg] se]. reflexivity.
  - destruct ev as [c|[x|]|]; cbn [bstrip run_bytes]; try reflexivity.
    + destruct (Reader.run_reader_st (Reader.run_fuel r [c]) r [c] F.FinPending) as [r1 [items e1]].
      destruct (Server.session H l a units (frames_in items)) as [[[rs u] lg] se].
      destruct se; try reflexivity. destruct e1; try reflexivity.
      specialize (IH r1 u d d' fi).
      destruct (run_bytes H l a r1 u d rest fi) as [[[[[rs' u'] lg'] dd] se'] b'].
      destruct (run_bytes H l a r1 u d' (bstrip rest) fi) as [[[[[rs2 u2] lg2] dd2] se2] b2].
      inversion IH; subst. reflexivity.
    + apply IH.
Qed.

(* Shutdown / closed channel: the run is cut there, whatever follows and however the stream ends *)
Definition cut (x : list (list N) * S.ucfg St * list S.event * N * Server.session_end * bend) :=
  let '(rs, u, lg, d, se, b) := x in (rs, u, lg, d, se, match b with BWaiting => BShutdown | other => other end).
Definition bends (ev : bevent) : Prop := ev = BCommand R.Shutdown \/ ev = BClosed.

Lemma run_bytes_shutdown l a ev post fi : bends ev -> forall pre r units d,
  run_bytes H l a r units d (pre ++ ev :: post) fi = cut (run_bytes H l a r units d pre None).
Proof.
  intros Hev. induction pre as [|e0 pre IH]; intros r units d.
  - cbn [app]. destruct Hev as [-> | ->]; reflexivity.
  - cbn [app]. destruct e0 as [c|[x|]|]; cbn [run_bytes]; try reflexivity.
    + destruct (Reader.run_reader_st (Reader.run_fuel r [c]) r [c] F.FinPending) as [r1 [items e1]].
      destruct (Server.session H l a units (frames_in items)) as [[[rs u] lg] se].
      destruct se; try reflexivity. destruct e1; try reflexivity.
      rewrite IH. destruct (run_bytes H l a r1 u d pre None) as [[[[[rs' u'] lg'] dd] se'] b']. reflexivity.
    + apply IH.
Qed.

Definition obs4 (x : list (list N) * S.ucfg St * list S.event * N * Server.session_end * bend) :=
  let '(rs, u, lg, _, se, _) := x in (rs, u, lg, se).
Definition bend_of (x : list (list N) * S.ucfg St * list S.event * N * Server.session_end * bend) : bend :=
  let '(_, _, _, _, _, b) := x in b.

(* whatever the link: where cancelling and re-entering next_frame loses nothing (the reader's
   cancel-safety on these chunks), the byte-level run is the command-free system *)
Theorem run_bytes_is_server_system l a units d evs fi : no_end evs ->
  Reader.run_cancel (Reader.reader_new (kind_of_link l)) (chunks_of evs) fi = Reader.run_session (kind_of_link l) false (chunks_of evs) fi ->
  let x := run_bytes H l a (Reader.reader_new (kind_of_link l)) units d evs (Some fi) in
  let y := server_system H l a units (chunks_of evs) fi in
  obs4 x = fst y /\ (snd (fst y) = Server.SOpen -> bend_of x = BReader (snd y)).
Proof.
  intros Hne Hsafe. cbv zeta. pose proof (run_bytes_cancel l a evs (Reader.reader_new (kind_of_link l)) units d fi Hne) as L.
  unfold server_system. rewrite <- Hsafe.
  destruct (run_bytes H l a (Reader.reader_new (kind_of_link l)) units d evs (Some fi)) as [[[[[rs u] lg] dd] se] b].
  destruct (Reader.run_cancel (Reader.reader_new (kind_of_link l)) (chunks_of evs) fi) as [items e].
  destruct L as [L1 L2]. cbn [obs4 bend_of fst snd]. unfold frames_in in L1. rewrite <- L1. split; [reflexivity|exact L2].
Qed.
End Sys.
