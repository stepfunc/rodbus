(* C19: the model of the C-ABI point database (Database.v) refines "one map per point type"
   (MapSpec.v), plus the individual characterisations of add / update / delete / get / read. *)
From Coq Require Import NArith List Lia Bool String.
From Rodbus Require Import Model.DbTypes Model.Database Spec.MapSpec.
Import ListNotations.
Local Open Scope N_scope.

Definition keys {T} (m : list (N * T)) : list N := map fst m.

Definition occupied {T} (m : list (N * T)) (i : N) : bool :=
  match get_entry m i with Some _ => true | None => false end.

(* What an entry operation on the map m at index i returns: whether it applied (hit), the binding of
   i if it did (None = removed), keys still unique, the map itself when it did not apply. *)
Definition entry_op {T} (m : list (N * T)) (i : N) (p : list (N * T) * bool) (hit : bool) (new : option T) : Prop :=
  snd p = hit /\
  (forall j, get_entry (fst p) j = if hit && N.eqb i j then new else get_entry m j) /\
  (NoDup (keys m) -> NoDup (keys (fst p))) /\
  (hit = false -> fst p = m).

Section Entries.
Context {T : Type}.
Implicit Types (m : list (N * T)) (i j : N) (v : T).

Lemma get_entry_None m i : get_entry m i = None <-> ~ In i (keys m).
Proof.
  induction m as [|[k x] r IH]; cbn [get_entry keys map fst In]; [tauto|].
  destruct (N.eqb_spec k i) as [->|Hne].
  - split; [discriminate|]. intros H; exfalso; apply H; now left.
  - fold (keys r). rewrite IH. tauto.
Qed.

Lemma occupied_In m i : occupied m i = true <-> In i (keys m).
Proof.
  unfold occupied. destruct (get_entry m i) eqn:E.
  - split; [intros _|reflexivity]. destruct (in_dec N.eq_dec i (keys m)) as [Hin|Hn]; [assumption|].
    apply get_entry_None in Hn. congruence.
  - apply get_entry_None in E. split; [discriminate|tauto].
Qed.

Lemma get_entry_In m i v : NoDup (keys m) -> (get_entry m i = Some v <-> In (i, v) m).
Proof.
  induction m as [|[k x] r IH]; cbn [get_entry keys map fst In]; intros Hnd.
  - split; [discriminate|tauto].
  - fold (keys r) in Hnd. apply NoDup_cons_iff in Hnd as [Hk Hnd].
    destruct (N.eqb_spec k i) as [->|Hne].
    + split.
      * intros [= ->]. now left.
      * intros [[= ->]|Hin]; [reflexivity|]. exfalso. apply Hk.
        unfold keys. change i with (fst (i, v)). now apply in_map.
    + rewrite (IH Hnd). split; [tauto|]. intros [[= -> _]|Hin]; [congruence|assumption].
Qed.

Lemma add_entry_snd m i v : snd (add_entry m i v) = negb (occupied m i).
Proof. unfold add_entry, occupied. now destruct (get_entry m i). Qed.

Lemma add_entry_get m i v j :
  get_entry (fst (add_entry m i v)) j
  = if negb (occupied m i) && N.eqb i j then Some v else get_entry m j.
Proof.
  unfold add_entry, occupied. destruct (get_entry m i); cbn [fst negb andb get_entry]; reflexivity.
Qed.

Lemma add_entry_unchanged m i v : snd (add_entry m i v) = false -> fst (add_entry m i v) = m.
Proof. unfold add_entry. now destruct (get_entry m i). Qed.

Lemma add_entry_nodup m i v : NoDup (keys m) -> NoDup (keys (fst (add_entry m i v))).
Proof.
  intros Hnd. unfold add_entry. destruct (get_entry m i) eqn:E; cbn [fst]; [assumption|].
  cbn [keys map fst]. apply NoDup_cons; [|assumption]. now apply get_entry_None.
Qed.

Lemma add_entry_op m i v : entry_op m i (add_entry m i v) (negb (occupied m i)) (Some v).
Proof.
  split; [apply add_entry_snd|]. split; [intros j; apply add_entry_get|]. split; [apply add_entry_nodup|].
  intros E. apply add_entry_unchanged. now rewrite add_entry_snd.
Qed.

Lemma update_entry_snd m i v : snd (update_entry m i v) = occupied m i.
Proof.
  unfold occupied. induction m as [|[k x] r IH]; cbn [update_entry get_entry snd]; [reflexivity|].
  destruct (N.eqb k i); [reflexivity|]. destruct (update_entry r i v) as [r' b]. exact IH.
Qed.

Lemma update_entry_get m i v j :
  get_entry (fst (update_entry m i v)) j
  = if occupied m i && N.eqb i j then Some v else get_entry m j.
Proof.
  unfold occupied. induction m as [|[k x] r IH]; cbn [update_entry get_entry fst andb]; [reflexivity|].
  destruct (N.eqb_spec k i) as [->|Hne]; cbn [fst get_entry andb].
  - destruct (N.eqb i j); reflexivity.
  - destruct (update_entry r i v) as [r' b]. cbn [fst get_entry] in *. rewrite IH.
    destruct (N.eqb_spec k j) as [->|Hne2]; [|reflexivity].
    destruct (N.eqb_spec i j); [congruence|]. now rewrite andb_false_r.
Qed.

Lemma update_entry_keys m i v : keys (fst (update_entry m i v)) = keys m.
Proof.
  induction m as [|[k x] r IH]; cbn [update_entry keys map fst]; [reflexivity|].
  destruct (N.eqb k i); [reflexivity|]. destruct (update_entry r i v) as [r' b].
  cbn [fst keys map] in *. unfold keys in IH. now rewrite IH.
Qed.

Lemma update_entry_unchanged m i v : snd (update_entry m i v) = false -> fst (update_entry m i v) = m.
Proof.
  induction m as [|[k x] r IH]; cbn [update_entry]; [reflexivity|].
  destruct (N.eqb k i); [discriminate|]. destruct (update_entry r i v) as [r' b].
  cbn [fst snd] in *. intros H. now rewrite IH.
Qed.

Lemma update_entry_nodup m i v : NoDup (keys m) -> NoDup (keys (fst (update_entry m i v))).
Proof. now rewrite update_entry_keys. Qed.

Lemma update_entry_op m i v : entry_op m i (update_entry m i v) (occupied m i) (Some v).
Proof.
  split; [apply update_entry_snd|]. split; [intros j; apply update_entry_get|]. split; [apply update_entry_nodup|].
  intros E. apply update_entry_unchanged. now rewrite update_entry_snd.
Qed.

Lemma remove_entry_snd m i : snd (remove_entry m i) = occupied m i.
Proof.
  unfold occupied. induction m as [|[k x] r IH]; cbn [remove_entry get_entry snd]; [reflexivity|].
  destruct (remove_entry r i) as [r' b]. destruct (N.eqb k i); [reflexivity|exact IH].
Qed.

Lemma remove_entry_get m i j :
  get_entry (fst (remove_entry m i)) j = if N.eqb i j then None else get_entry m j.
Proof.
  induction m as [|[k x] r IH]; cbn [remove_entry get_entry fst].
  - now destruct (N.eqb i j).
  - destruct (remove_entry r i) as [r' b]. cbn [fst] in IH.
    destruct (N.eqb_spec k i) as [->|Hne]; cbn [fst get_entry].
    + rewrite IH. now destruct (N.eqb i j).
    + rewrite IH. destruct (N.eqb_spec k j) as [->|Hne2]; [|reflexivity].
      destruct (N.eqb_spec i j); [congruence|reflexivity].
Qed.

(* remove_entry_get in the form it shares with add and update (entry_op) *)
Lemma remove_entry_get_hit m i j :
  get_entry (fst (remove_entry m i)) j = if occupied m i && N.eqb i j then None else get_entry m j.
Proof.
  rewrite remove_entry_get. destruct (N.eqb_spec i j) as [<-|]; rewrite ?andb_false_r; [|reflexivity].
  unfold occupied. now destruct (get_entry m i).
Qed.

Lemma remove_entry_keys m i :
  keys (fst (remove_entry m i)) = filter (fun k => negb (N.eqb k i)) (keys m).
Proof.
  induction m as [|[k x] r IH]; cbn [remove_entry keys map fst filter]; [reflexivity|].
  destruct (remove_entry r i) as [r' b]. cbn [fst] in IH. fold (keys r).
  destruct (N.eqb k i); cbn [negb fst keys map]; [exact IH|]. unfold keys in *. now rewrite IH.
Qed.

Lemma remove_entry_unchanged m i : snd (remove_entry m i) = false -> fst (remove_entry m i) = m.
Proof.
  induction m as [|[k x] r IH]; cbn [remove_entry]; [reflexivity|].
  destruct (remove_entry r i) as [r' b]. destruct (N.eqb k i); [discriminate|].
  cbn [fst snd] in *. intros H. now rewrite IH.
Qed.

Lemma remove_entry_nodup m i : NoDup (keys m) -> NoDup (keys (fst (remove_entry m i))).
Proof. intros H. rewrite remove_entry_keys. now apply NoDup_filter. Qed.

Lemma remove_entry_op m i : entry_op m i (remove_entry m i) (occupied m i) None.
Proof.
  split; [apply remove_entry_snd|]. split; [intros j; apply remove_entry_get_hit|]. split; [apply remove_entry_nodup|].
  intros E. apply remove_entry_unchanged. now rewrite remove_entry_snd.
Qed.

Lemma read_range_spec (g : N -> T + N) count : forall start,
  match read_range g start count with
  | inl xs => map inl xs = map (fun k => g (start + N.of_nat k)) (seq 0 count)
  | inr e => exists k, (k < count)%nat /\ g (start + N.of_nat k) = inr e /\
                       forall n : nat, (n < k)%nat -> exists x, g (start + N.of_nat n) = inl x
  end.
Proof.
  induction count as [|c IH]; intros start; cbn [read_range seq map]; [reflexivity|].
  replace (start + N.of_nat 0) with start by lia.
  destruct (g start) as [x|e] eqn:Eg.
  - specialize (IH (start + 1)). destruct (read_range g (start + 1) c) as [xs|e].
    + cbn [map]. f_equal. rewrite IH, <- seq_shift, map_map. apply map_ext. intros k. f_equal. lia.
    + destruct IH as (k & Hk & Hg & Hlt). exists (S k). split; [lia|]. split.
      * rewrite <- Hg. f_equal. lia.
      * intros [|n] Hn; [exists x; now replace (start + N.of_nat 0) with start by lia|].
        destruct (Hlt n) as [y Hy]; [lia|]. exists y. rewrite <- Hy. f_equal. lia.
  - exists 0%nat. split; [lia|]. split; [now replace (start + N.of_nat 0) with start by lia|].
    intros n Hn. lia.
Qed.

End Entries.

(* what the database holds, as one partial function per point type *)
Definition abs (d : database) (t : ptype) (i : N) : option value :=
  match t with
  | Coil => option_map VBit (get_entry (coils d) i)
  | Discrete => option_map VBit (get_entry (discrete d) i)
  | Holding => option_map VReg (get_entry (holding d) i)
  | Input => option_map VReg (get_entry (input d) i)
  end.

(* Every index is bound at most once in each map: what a HashMap guarantees of itself. No theorem
   needs it as a hypothesis (abs reads the first binding); it is shown to be kept, and under it abs
   is plain membership (abs_In). *)
Definition wf (d : database) : Prop :=
  NoDup (keys (coils d)) /\ NoDup (keys (discrete d)) /\
  NoDup (keys (holding d)) /\ NoDup (keys (input d)).

Definition op_ok_prop (o : op) : Prop := op_ok o = true.

Lemma present_map {T} (f : T -> value) (m : list (N * T)) i :
  present (option_map f (get_entry m i)) = occupied m i.
Proof. unfold occupied. now destruct (get_entry m i). Qed.

Lemma wf_empty : wf db_empty.
Proof. repeat split; constructor. Qed.

Lemma abs_empty t i : abs db_empty t i = None.
Proof. now destruct t. Qed.

(* under wf, abs is membership in the corresponding list: abs does not depend on lookup order *)
Lemma abs_In d : wf d -> forall t i v,
  abs d t i = Some v <->
  match t, v with
  | Coil, VBit b => In (i, b) (coils d)
  | Discrete, VBit b => In (i, b) (discrete d)
  | Holding, VReg r => In (i, r) (holding d)
  | Input, VReg r => In (i, r) (input d)
  | _, _ => False
  end.
Proof.
  intros (H1 & H2 & H3 & H4) t i v.
  destruct t, v; cbn [abs];
    try (split; [destruct (get_entry _ i); discriminate|tauto]).
  - rewrite <- (get_entry_In _ _ _ H1). destruct (get_entry (coils d) i); cbn; split; congruence.
  - rewrite <- (get_entry_In _ _ _ H2). destruct (get_entry (discrete d) i); cbn; split; congruence.
  - rewrite <- (get_entry_In _ _ _ H3). destruct (get_entry (holding d) i); cbn; split; congruence.
  - rewrite <- (get_entry_In _ _ _ H4). destruct (get_entry (input d) i); cbn; split; congruence.
Qed.
Print Assumptions abs_In.

Lemma abs_typed d t i v : abs d t i = Some v -> value_ok t v = true.
Proof. destruct t; cbn [abs]; destruct (get_entry _ i); cbn; intros [= <-]; reflexivity. Qed.

Lemma ret_bool_let {A} (p : A * bool) (f : A -> database) :
  ret_bool (let (m, r) := p in (f m, r)) = (f (fst p), RBool (snd p)).
Proof. now destruct p. Qed.

Lemma ptype_eqb_spec a b : reflect (a = b) (ptype_eqb a b).
Proof. destruct a, b; constructor; congruence. Qed.

(* The effect on the database of putting the result of an entry operation (outcome hit, at index i)
   in place of the map of type t. *)
Definition mutation (d d' : database) (t : ptype) (i : N) (hit : bool) (new : option value) : Prop :=
  (forall t' i', abs d' t' i' = if hit && (ptype_eqb t t' && N.eqb i i') then new else abs d t' i') /\
  (wf d -> wf d') /\
  (hit = false -> d' = d).

(* get / set are the projection and the setter of the map that abs reads for type t through f *)
Definition field {T} (t : ptype) (f : T -> value) (get : database -> list (N * T)) (set : database -> list (N * T) -> database) : Prop :=
  (forall d m t' i', abs (set d m) t' i' = if ptype_eqb t t' then option_map f (get_entry m i') else abs d t' i') /\
  (forall d i', abs d t i' = option_map f (get_entry (get d) i')) /\
  (forall d m, wf d -> NoDup (keys m) -> wf (set d m)) /\
  (forall d, wf d -> NoDup (keys (get d))) /\
  (forall d, set d (get d) = d).

Lemma coils_field : field Coil VBit coils set_coils.
Proof.
  split; [now intros d m []|]. split; [reflexivity|]. split; [intros d m (?&?&?&?) ?; repeat split; assumption|].
  split; [intros d H; apply H|now intros []].
Qed.
Lemma discrete_field : field Discrete VBit discrete set_discrete.
Proof.
  split; [now intros d m []|]. split; [reflexivity|]. split; [intros d m (?&?&?&?) ?; repeat split; assumption|].
  split; [intros d H; apply H|now intros []].
Qed.
Lemma holding_field : field Holding VReg holding set_holding.
Proof.
  split; [now intros d m []|]. split; [reflexivity|]. split; [intros d m (?&?&?&?) ?; repeat split; assumption|].
  split; [intros d H; apply H|now intros []].
Qed.
Lemma input_field : field Input VReg input set_input.
Proof.
  split; [now intros d m []|]. split; [reflexivity|]. split; [intros d m (?&?&?&?) ?; repeat split; assumption|].
  split; [intros d H; apply H|now intros []].
Qed.

(* The twelve database_add / _update / _delete functions are ret_bool (let (m, r) := p in (set d m, r))
   for p an entry operation on the map of one field. *)
Lemma field_mutation {T} t (f : T -> value) get set : field t f get set ->
  forall d i (p : list (N * T) * bool) hit new (x := ret_bool (let (m, r) := p in (set d m, r))), entry_op (get d) i p hit new ->
  snd x = RBool hit /\ mutation d (fst x) t i hit (option_map f new).
Proof.
  intros (Aset & Aget & Wset & Wget & Sid) d i p hit new x (Hs & Hg & Hn & Hu). subst x.
  rewrite ret_bool_let. cbn [fst snd]. split; [now rewrite Hs|]. split; [|split].
  - intros t' i'. rewrite Aset. destruct (ptype_eqb_spec t t') as [<-|]; [|now rewrite andb_false_r].
    rewrite Hg, Aget. cbn [andb]. now destruct (hit && N.eqb i i').
  - intros Hw. apply Wset; [exact Hw|apply Hn, Wget, Hw].
  - intros E. rewrite (Hu E). apply Sid.
Qed.

Lemma exec_add d t i v : value_ok t v = true ->
  snd (exec d (Add t i v)) = RBool (negb (present (abs d t i))) /\
  mutation d (fst (exec d (Add t i v))) t i (negb (present (abs d t i))) (Some v).
Proof.
  destruct t, v; try discriminate; intros _; cbn [exec abs]; rewrite present_map.
  - exact (field_mutation _ _ _ _ coils_field _ _ _ _ _ (add_entry_op _ _ _)).
  - exact (field_mutation _ _ _ _ discrete_field _ _ _ _ _ (add_entry_op _ _ _)).
  - exact (field_mutation _ _ _ _ holding_field _ _ _ _ _ (add_entry_op _ _ _)).
  - exact (field_mutation _ _ _ _ input_field _ _ _ _ _ (add_entry_op _ _ _)).
Qed.

Lemma exec_update d t i v : value_ok t v = true ->
  snd (exec d (Update t i v)) = RBool (present (abs d t i)) /\
  mutation d (fst (exec d (Update t i v))) t i (present (abs d t i)) (Some v).
Proof.
  destruct t, v; try discriminate; intros _; cbn [exec abs]; rewrite present_map.
  - exact (field_mutation _ _ _ _ coils_field _ _ _ _ _ (update_entry_op _ _ _)).
  - exact (field_mutation _ _ _ _ discrete_field _ _ _ _ _ (update_entry_op _ _ _)).
  - exact (field_mutation _ _ _ _ holding_field _ _ _ _ _ (update_entry_op _ _ _)).
  - exact (field_mutation _ _ _ _ input_field _ _ _ _ _ (update_entry_op _ _ _)).
Qed.

Lemma exec_delete d t i :
  snd (exec d (Delete t i)) = RBool (present (abs d t i)) /\
  mutation d (fst (exec d (Delete t i))) t i (present (abs d t i)) None.
Proof.
  destruct t; cbn [exec abs]; rewrite present_map.
  - exact (field_mutation _ _ _ _ coils_field _ _ _ _ _ (remove_entry_op _ _)).
  - exact (field_mutation _ _ _ _ discrete_field _ _ _ _ _ (remove_entry_op _ _)).
  - exact (field_mutation _ _ _ _ holding_field _ _ _ _ _ (remove_entry_op _ _)).
  - exact (field_mutation _ _ _ _ input_field _ _ _ _ _ (remove_entry_op _ _)).
Qed.

(* get returns the bound value and fails (ParamError::InvalidIndex) exactly for absent indices *)
Theorem C19_get d t i : exec d (Get t i) = (d, RGet (abs d t i)).
Proof. now destruct t. Qed.
Print Assumptions C19_get.

Lemma cells_S (f : N -> option value) start c :
  map (fun k => f (start + N.of_nat k)) (seq 0 (S c))
  = f start :: map (fun k => f (start + 1 + N.of_nat k)) (seq 0 c).
Proof.
  cbn [seq map]. f_equal; [f_equal; lia|].
  rewrite <- seq_shift, map_map. apply map_ext. intros k. f_equal. lia.
Qed.

Lemma read_range_refine {T} (f : T -> value) (m : list (N * T)) count : forall start,
  reply_map f (read_range (read_point m) start count)
  = spec_read (fun a => option_map f (get_entry m a)) start count.
Proof.
  set (F := fun a : N => option_map f (get_entry m a)).
  induction count as [|c IH]; intros start; [reflexivity|].
  specialize (IH (start + 1)). unfold spec_read in *. rewrite cells_S.
  cbn [read_range forallb values flat_map]. unfold read_point at 1.
  assert (HF : F start = option_map f (get_entry m start)) by reflexivity. rewrite HF. clear HF.
  destruct (get_entry m start) as [x|]; cbn [option_map present andb reply_map]; [|reflexivity].
  fold (values (map (fun k => F (start + 1 + N.of_nat k)) (seq 0 c))).
  destruct (read_range (read_point m) (start + 1) c) as [xs|e]; cbn [reply_map] in *;
    destruct (forallb present _); try discriminate; [|assumption].
  injection IH as <-. reflexivity.
Qed.

Lemma read_reply_abs d t start count : read_reply d t start count = spec_read (abs d t) start count.
Proof. destruct t; cbn [read_reply]; apply read_range_refine. Qed.

Lemma spec_read_ext f g start count : (forall a, f a = g a) -> spec_read f start count = spec_read g start count.
Proof.
  intros H. unfold spec_read.
  now rewrite (map_ext (fun k => f (start + N.of_nat k)) (fun k => g (start + N.of_nat k))) by (intros; apply H).
Qed.

Lemma forallb_present_false l : forallb present l = false <-> In None l.
Proof.
  induction l as [|[v|] r IH]; cbn [forallb present andb In].
  - split; [discriminate|tauto].
  - rewrite IH. split; [tauto|]. intros [H|H]; [discriminate|assumption].
  - split; [now left|reflexivity].
Qed.

Lemma values_present l : forallb present l = true -> map Some (values l) = l.
Proof.
  induction l as [|[v|] r IH]; cbn [forallb present andb values flat_map app map]; intros H;
    [reflexivity| |discriminate].
  f_equal. now apply IH.
Qed.

Lemma map_Some_inj {A} (l l' : list A) : map Some l = map Some l' -> l = l'.
Proof.
  revert l'. induction l as [|x l IH]; intros [|y l']; cbn [map]; try discriminate; [reflexivity|].
  intros [= -> H]. f_equal. now apply IH.
Qed.

Lemma spec_read_exception f start count e :
  spec_read f start count = inr e <->
  e = 2 /\ exists k, (k < count)%nat /\ f (start + N.of_nat k) = None.
Proof.
  unfold spec_read. destruct (forallb present _) eqn:E.
  - split; [discriminate|]. intros (_ & k & Hk & Hf). exfalso.
    rewrite forallb_forall in E. specialize (E None). cbn in E.
    enough (false = true) by discriminate. apply E. apply in_map_iff. exists k. split; [assumption|].
    apply in_seq. lia.
  - apply forallb_present_false in E. apply in_map_iff in E as (k & Hf & Hin). apply in_seq in Hin.
    split.
    + intros [= <-]. split; [reflexivity|]. exists k. split; [lia|assumption].
    + intros (-> & _). reflexivity.
Qed.

Lemma spec_read_values f start count vs :
  spec_read f start count = inl vs <->
  map Some vs = map (fun k => f (start + N.of_nat k)) (seq 0 count).
Proof.
  unfold spec_read. destruct (forallb present _) eqn:E.
  - pose proof (values_present _ E) as Hv. split.
    + intros [= <-]. exact Hv.
    + intros H. f_equal. apply map_Some_inj. rewrite Hv. symmetry. exact H.
  - split; [discriminate|]. intros H. exfalso. apply forallb_present_false in E.
    rewrite <- H in E. apply in_map_iff in E as (? & ? & _). discriminate.
Qed.

(* every operation keeps the invariant, and one that answers false hands back the very database
   (an ill-typed add / update, a get and a read return d itself) *)
Lemma exec_shape d o :
  (wf d -> wf (fst (exec d o))) /\ (snd (exec d o) = RBool false -> fst (exec d o) = d).
Proof.
  assert (M : forall d' r t i hit new, r = RBool hit /\ mutation d d' t i hit new ->
                (wf d -> wf d') /\ (r = RBool false -> d' = d)).
  { intros d' r t i hit new (-> & _ & Hw & Hu). split; [exact Hw|]. intros [= E]. exact (Hu E). }
  destruct o as [t i v|t i v|t i|t i|t s c].
  - destruct (value_ok t v) eqn:Hok; [exact (M _ _ _ _ _ _ (exec_add d t i v Hok))|].
    destruct t, v; try discriminate Hok; (split; [exact (fun H => H)|reflexivity]).
  - destruct (value_ok t v) eqn:Hok; [exact (M _ _ _ _ _ _ (exec_update d t i v Hok))|].
    destruct t, v; try discriminate Hok; (split; [exact (fun H => H)|reflexivity]).
  - exact (M _ _ _ _ _ _ (exec_delete d t i)).
  - rewrite C19_get. split; [exact (fun H => H)|reflexivity].
  - split; [exact (fun H => H)|reflexivity].
Qed.

Lemma exec_wf d o : wf d -> wf (fst (exec d o)).
Proof. apply exec_shape. Qed.
Print Assumptions exec_wf.

Lemma run_wf ops : forall d, wf d -> wf (fst (run d ops)).
Proof.
  induction ops as [|o r IH]; intros d H; cbn [run]; [exact H|].
  pose proof (exec_wf d o H) as H1. destruct (exec d o) as [d1 x]. cbn [fst] in H1.
  specialize (IH d1 H1). destruct (run d1 r) as [d2 xs]. exact IH.
Qed.
Print Assumptions run_wf.

Definition related (d : database) (s : spec_state) : Prop := forall t i, abs d t i = s t i.

Lemma related_empty : related db_empty spec_empty.
Proof. intros t i. apply abs_empty. Qed.

(* add / update / delete on both sides: the same test decides, the same cell is set *)
Lemma mutation_refine d s d' hit t i new : related d s ->
  (forall t' i', abs d' t' i' = if hit && (ptype_eqb t t' && N.eqb i i') then new else abs d t' i') ->
  related d' (if hit then spec_set s t i new else s).
Proof.
  intros H Ha t' i'. rewrite Ha. destruct hit; cbn [andb]; [|apply H]. unfold spec_set. now rewrite H.
Qed.

Lemma step_refine d s o : op_ok_prop o -> related d s ->
  snd (exec d o) = snd (spec_exec s o) /\ related (fst (exec d o)) (fst (spec_exec s o)).
Proof.
  unfold op_ok_prop. intros Hok H.
  destruct o as [t i v|t i v|t i|t i|t st c]; cbn [op_ok] in Hok; cbn [spec_exec].
  - destruct (exec_add d t i v Hok) as (Hr & Ha & _). rewrite Hr, <- (H t i).
    pose proof (mutation_refine d s _ _ t i _ H Ha) as R. now destruct (present (abs d t i)).
  - destruct (exec_update d t i v Hok) as (Hr & Ha & _). rewrite Hr, <- (H t i).
    pose proof (mutation_refine d s _ _ t i _ H Ha) as R. now destruct (present (abs d t i)).
  - destruct (exec_delete d t i) as (Hr & Ha & _). rewrite Hr, <- (H t i).
    pose proof (mutation_refine d s _ _ t i _ H Ha) as R. now destruct (present (abs d t i)).
  - rewrite C19_get. cbn [fst snd]. rewrite (H t i). split; [reflexivity|exact H].
  - cbn [exec fst snd]. rewrite read_reply_abs, (spec_read_ext _ _ st c (H t)). split; [reflexivity|exact H].
Qed.

(* results identical and final abstract states pointwise equal, from any related pair *)
Theorem C19_refine_from : forall ops d s, related d s -> Forall op_ok_prop ops ->
  snd (run d ops) = snd (spec_run s ops) /\ related (fst (run d ops)) (fst (spec_run s ops)).
Proof.
  induction ops as [|o r IH]; intros d s Hrel Hok; cbn [run spec_run]; [split; [reflexivity|exact Hrel]|].
  inversion Hok as [|? ? Ho Hr]; subst.
  destruct (step_refine d s o Ho Hrel) as [Hx Hrel1].
  destruct (exec d o) as [d1 x]. destruct (spec_exec s o) as [s1 x']. cbn [fst snd] in Hx, Hrel1.
  specialize (IH d1 s1 Hrel1 Hr).
  destruct (run d1 r) as [d2 xs]. destruct (spec_run s1 r) as [s2 xs']. cbn [fst snd] in *.
  destruct IH as [-> IH]. subst x'. split; [reflexivity|exact IH].
Qed.
Print Assumptions C19_refine_from.

(* the version with the invariant: from any well-formed database related to a spec state *)
Theorem C19_refine_wf : forall ops d s, wf d -> related d s -> Forall op_ok_prop ops ->
  let (d', rs) := run d ops in
  let (s', rs') := spec_run s ops in
  rs = rs' /\ (forall t i, abs d' t i = s' t i) /\ wf d'.
Proof.
  intros ops d s Hwf Hrel Hok.
  pose proof (C19_refine_from ops d s Hrel Hok) as [H1 H2]. pose proof (run_wf ops d Hwf) as H3.
  destruct (run d ops) as [d' rs]. destruct (spec_run s ops) as [s' rs']. cbn [fst snd] in *.
  split; [exact H1|]. split; [exact H2|exact H3].
Qed.
Print Assumptions C19_refine_wf.

(* all operation sequences from the empty database *)
Theorem C19_refine : forall ops, Forall op_ok_prop ops ->
  let (d, rs) := run db_empty ops in
  let (s, rs') := spec_run spec_empty ops in
  rs = rs' /\ (forall t i, abs d t i = s t i) /\ wf d.
Proof. intros ops Hok. exact (C19_refine_wf ops db_empty spec_empty wf_empty related_empty Hok). Qed.
Print Assumptions C19_refine.

(* what the correspondence check compares *)
Corollary C19_refine_shown : forall ops, Forall op_ok_prop ops ->
  show_results (snd (run db_empty ops)) = show_results (snd (spec_run spec_empty ops)).
Proof. intros ops Hok. now rewrite (proj1 (C19_refine_from ops _ _ related_empty Hok)). Qed.
Print Assumptions C19_refine_shown.

Lemma present_false o : present o = false <-> o = None.
Proof. destruct o; cbn; split; congruence. Qed.
Lemma present_true o : present o = true <-> o <> None.
Proof. destruct o; cbn; split; congruence. Qed.

Lemma hit t i : ptype_eqb t t && N.eqb i i = true.
Proof. rewrite N.eqb_refl. now destruct t. Qed.
Lemma miss t i t' i' : (t', i') <> (t, i) -> ptype_eqb t t' && N.eqb i i' = false.
Proof.
  intros H. destruct (ptype_eqb_spec t t') as [<-|]; [|reflexivity].
  destruct (N.eqb_spec i i') as [<-|]; [congruence|reflexivity].
Qed.

Theorem C19_add_iff d t i v : value_ok t v = true ->
  (snd (exec d (Add t i v)) = RBool true <-> abs d t i = None).
Proof.
  intros Hok. rewrite (proj1 (exec_add d t i v Hok)), <- present_false.
  destruct (present (abs d t i)); cbn; split; congruence.
Qed.
Print Assumptions C19_add_iff.

Theorem C19_add_effect d t i v : value_ok t v = true -> abs d t i = None ->
  abs (fst (exec d (Add t i v))) t i = Some v /\
  forall t' i', (t', i') <> (t, i) -> abs (fst (exec d (Add t i v))) t' i' = abs d t' i'.
Proof.
  intros Hok Hn. destruct (exec_add d t i v Hok) as (_ & Ha & _). split; [|intros t' i' Hne]; rewrite Ha, Hn; cbn [present negb andb].
  - now rewrite hit.
  - now rewrite miss.
Qed.
Print Assumptions C19_add_effect.

Theorem C19_update_iff d t i v : value_ok t v = true ->
  (snd (exec d (Update t i v)) = RBool true <-> abs d t i <> None).
Proof.
  intros Hok. rewrite (proj1 (exec_update d t i v Hok)), <- present_true.
  destruct (present (abs d t i)); cbn; split; congruence.
Qed.
Print Assumptions C19_update_iff.

Theorem C19_update_effect d t i v : value_ok t v = true -> abs d t i <> None ->
  abs (fst (exec d (Update t i v))) t i = Some v /\
  forall t' i', (t', i') <> (t, i) -> abs (fst (exec d (Update t i v))) t' i' = abs d t' i'.
Proof.
  intros Hok Hn. apply present_true in Hn. destruct (exec_update d t i v Hok) as (_ & Ha & _).
  split; [|intros t' i' Hne]; rewrite Ha, Hn; cbn [andb].
  - now rewrite hit.
  - now rewrite miss.
Qed.
Print Assumptions C19_update_effect.

Theorem C19_delete_iff d t i :
  snd (exec d (Delete t i)) = RBool true <-> abs d t i <> None.
Proof.
  rewrite (proj1 (exec_delete d t i)), <- present_true.
  destruct (present (abs d t i)); cbn; split; congruence.
Qed.
Print Assumptions C19_delete_iff.

(* after delete (successful or not) the index is absent; nothing else moves *)
Theorem C19_delete_effect d t i :
  abs (fst (exec d (Delete t i))) t i = None /\
  forall t' i', (t', i') <> (t, i) -> abs (fst (exec d (Delete t i))) t' i' = abs d t' i'.
Proof.
  destruct (exec_delete d t i) as (_ & Ha & _). split; [|intros t' i' Hne]; rewrite Ha.
  - rewrite hit, andb_true_r. destruct (abs d t i); reflexivity.
  - now rewrite miss, andb_false_r.
Qed.
Print Assumptions C19_delete_effect.

(* a failing add / update / delete leaves the database itself untouched ("else unchanged");
   the typing hypothesis is the property text's, the proof does not use it *)
Theorem C19_fail_identical d o : op_ok_prop o -> snd (exec d o) = RBool false -> fst (exec d o) = d.
Proof. intros _. apply exec_shape. Qed.
Print Assumptions C19_fail_identical.

Theorem C19_fail_unchanged d o : op_ok_prop o ->
  snd (exec d o) = RBool false -> forall t i, abs (fst (exec d o)) t i = abs d t i.
Proof. intros Hok Hf t i. now rewrite (C19_fail_identical d o Hok Hf). Qed.
Print Assumptions C19_fail_unchanged.

Theorem C19_get_iff d t i : snd (exec d (Get t i)) = RGet None <-> abs d t i = None.
Proof. rewrite C19_get. cbn [snd]. split; congruence. Qed.
Print Assumptions C19_get_iff.

Theorem C19_read_unchanged d t start count : fst (exec d (Read t start count)) = d.
Proof. reflexivity. Qed.
Print Assumptions C19_read_unchanged.

(* a read touching an absent point is answered with exception 02 *)
Theorem C19_read_absent d t start count :
  (exists k, (k < count)%nat /\ abs d t (start + N.of_nat k) = None) ->
  snd (exec d (Read t start count)) = RRead (inr 2).
Proof.
  intros H. cbn [exec snd]. rewrite read_reply_abs. f_equal. apply spec_read_exception. now split.
Qed.
Print Assumptions C19_read_absent.

(* ... and only such a read is; no other exception code is ever produced *)
Theorem C19_read_exception_iff d t start count e :
  snd (exec d (Read t start count)) = RRead (inr e) <->
  e = 2 /\ exists k, (k < count)%nat /\ abs d t (start + N.of_nat k) = None.
Proof.
  cbn [exec snd]. rewrite read_reply_abs, <- spec_read_exception. split; [now intros [= ->]|now intros ->].
Qed.
Print Assumptions C19_read_exception_iff.

(* a read of present points returns their values in ascending address order *)
Theorem C19_read_present d t start count :
  (forall k, (k < count)%nat -> abs d t (start + N.of_nat k) <> None) ->
  exists vs, snd (exec d (Read t start count)) = RRead (inl vs) /\
             map Some vs = map (fun k => abs d t (start + N.of_nat k)) (seq 0 count).
Proof.
  intros H. cbn [exec snd]. rewrite read_reply_abs.
  destruct (spec_read (abs d t) start count) as [vs|e] eqn:E.
  - exists vs. split; [reflexivity|]. now apply spec_read_values.
  - exfalso. apply spec_read_exception in E as (_ & k & Hk & Hn). exact (H k Hk Hn).
Qed.
Print Assumptions C19_read_present.

Theorem C19_read_values_iff d t start count vs :
  snd (exec d (Read t start count)) = RRead (inl vs) <->
  map Some vs = map (fun k => abs d t (start + N.of_nat k)) (seq 0 count).
Proof.
  cbn [exec snd]. rewrite read_reply_abs, <- spec_read_values. split; [now intros [= ->]|now intros ->].
Qed.
Print Assumptions C19_read_values_iff.

Definition demo : list op :=
  [ Add Coil 1 (VBit true); Add Coil 1 (VBit false); Get Coil 1; Update Coil 2 (VBit true);
    Add Coil 2 (VBit false); Read Coil 1 2; Read Coil 1 3; Add Holding 7 (VReg 65535);
    Get Holding 7; Get Input 7; Get Discrete 1; Delete Coil 1; Delete Coil 1; Read Coil 1 2;
    Update Holding 7 (VReg 12); Read Holding 7 1; Add Input 0 (VReg 3); Add Discrete 9 (VBit true);
    Read Input 0 1; Read Discrete 9 1; Read Coil 5 0 ].

Local Open Scope string_scope.
Example demo_ok : Forall op_ok_prop demo.
Proof. repeat constructor. Qed.
Example demo_model : show_results (snd (run db_empty demo))
  = "T;F;b1;F;T;[b1,b0];E2;T;r65535;-;-;T;F;E2;T;[r12];T;T;[r3];[b1];[]".
Proof. vm_compute. reflexivity. Qed.
Example demo_spec : show_results (snd (spec_run spec_empty demo))
  = "T;F;b1;F;T;[b1,b0];E2;T;r65535;-;-;T;F;E2;T;[r12];T;T;[r3];[b1];[]".
Proof. vm_compute. reflexivity. Qed.
Example demo_state : fst (run db_empty demo)
  = {| coils := [(2, false)]; discrete := [(9, true)]; holding := [(7, 12)]; input := [(0, 3)] |}%N.
Proof. vm_compute. reflexivity. Qed.
(* the four maps are independent: the same index in another type is untouched *)
Example demo_independent :
  show_results (snd (run db_empty [Add Coil 4 (VBit true); Get Discrete 4; Get Holding 4; Get Input 4;
                                   Add Holding 4 (VReg 9); Delete Coil 4; Get Holding 4]))
  = "T;-;-;-;T;T;r9".
Proof. vm_compute. reflexivity. Qed.
(* the first absent address decides, whatever follows it *)
Example demo_first_absent :
  show_results (snd (run db_empty [Add Holding 10 (VReg 1); Add Holding 12 (VReg 3); Read Holding 10 3;
                                   Add Holding 11 (VReg 2); Read Holding 10 3]))
  = "T;T;E2;T;[r1,r2,r3]".
Proof. vm_compute. reflexivity. Qed.
(* op_ok is a real restriction: on an ill-typed operation (which the Rust API cannot express) the
   inert model and the untyped oracle differ, so the refinement theorem needs the hypothesis *)
Example ill_typed_differs :
  snd (exec db_empty (Add Coil 1 (VReg 5))) <> snd (spec_exec spec_empty (Add Coil 1 (VReg 5))).
Proof. vm_compute. discriminate. Qed.
