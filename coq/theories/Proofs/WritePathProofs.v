(* C06, transmit side: whatever the transport does and whatever commands arrive, what has been handed to the
   transport is a PREFIX of the one serialisation of the frame, and when the write returns Ok it is the whole
   frame exactly once. Proved from the regenerated tables of Gen/WritePath.v: every arm of PhysLayer::write is
   write_all with its result returned; write_reply creates the write future once. *)
From Coq Require Import List.
From Rodbus Require Import Gen.WritePath Model.WritePath.
Import ListNotations.

(* the transport takes k bytes, then the rest of the script runs on what remains *)
Lemma prefix_step {A} k (rem o rest : list A) (done : Prop) :
  skipn k rem = o ++ rest /\ (done -> o = skipn k rem) ->
  rem = (firstn k rem ++ o) ++ rest /\ (done -> firstn k rem ++ o = rem).
Proof.
  intros [Hr Hd]. split.
  - rewrite <- app_assoc, <- Hr. symmetry. apply firstn_skipn.
  - intros H. rewrite (Hd H). apply firstn_skipn.
Qed.

Lemma write_all_prefix : forall ts rem out r, write_all rem ts = (out, r) -> exists rest, rem = out ++ rest /\ (r = WDone -> out = rem).
Proof.
  induction ts as [|k ts IH]; intros rem out r; destruct rem as [|x rem']; cbn [write_all]; intros H.
  - injection H as <- <-. exists []; split; [reflexivity|auto].
  - injection H as <- <-. exists (x :: rem'). split; [reflexivity|discriminate].
  - injection H as <- <-. exists []; split; [reflexivity|auto].
  - destruct (write_all (skipn k (x :: rem')) ts) as [o r'] eqn:E. injection H as <- <-.
    destruct (IH _ _ _ E) as (rest & Hr). exists rest. now apply prefix_step.
Qed.

Lemma write_once_prefix : forall ts data out r, write_once data ts = (out, r) -> exists rest, data = out ++ rest.
Proof.
  induction ts as [|k ts IH]; intros data out r H; cbn [write_once] in H.
  - injection H as <- <-. now exists data.
  - destruct k as [|k].
    + destruct data; [inversion H; subst; now exists []|]. eapply IH; eassumption.
    + injection H as <- <-. exists (skipn (S k) data). symmetry. exact (firstn_skipn (S k) data).
Qed.

(* every transport arm of PhysLayer::write hands over all the bytes or does not return Ok *)
Lemma every_arm_is_write_all : forall v, phys_write_arm v = WriteAllReturned.
Proof. intros v. destruct v; reflexivity. Qed.

Definition is_take (e : wevent) : bool := match e with Take _ => true | Cmd CChangeDecoding => false | Cmd _ => true end.

Lemma write_reply_once_ignores_decoding : forall evs data rem,
  write_reply WriteOnceRacedAgainstCommands data rem evs = write_reply WriteOnceRacedAgainstCommands data rem (filter is_take evs).
Proof.
  induction evs as [|e evs IH]; intros data rem; [reflexivity|]. destruct rem as [|x rem']; [destruct (filter is_take (e :: evs)); reflexivity|].
  destruct e as [k|c]; cbn [filter is_take].
  - cbn [write_reply]. now rewrite IH.
  - destruct c; cbn [filter is_take write_reply]; [apply IH|reflexivity|reflexivity].
Qed.

Lemma write_reply_once_prefix : forall evs data rem out r, write_reply WriteOnceRacedAgainstCommands data rem evs = (out, r) ->
  exists rest, rem = out ++ rest /\ (r = RDone -> out = rem).
Proof.
  induction evs as [|e evs IH]; intros data rem out r; destruct rem as [|x rem']; cbn [write_reply]; intros H.
  - injection H as <- <-. exists []; split; [reflexivity|auto].
  - injection H as <- <-. exists (x :: rem'). split; [reflexivity|discriminate].
  - injection H as <- <-. exists []; split; [reflexivity|auto].
  - destruct e as [k|c].
    + destruct (write_reply WriteOnceRacedAgainstCommands data (skipn k (x :: rem')) evs) as [o r'] eqn:E. injection H as <- <-.
      destruct (IH _ _ _ _ E) as (rest & Hr). exists rest. now apply prefix_step.
    + destruct c.
      * exact (IH _ _ _ _ H).
      * injection H as <- <-. exists (x :: rem'). split; [reflexivity|discriminate].
      * injection H as <- <-. exists (x :: rem'). split; [reflexivity|discriminate].
Qed.


From Rodbus Require Import Gen.ClientFatal.

Lemma client_write_prefix : forall evs shape rem out r, client_write shape rem evs = (out, r) ->
  exists rest, rem = out ++ rest /\ (r = CDone -> out = rem).
Proof.
  induction evs as [|e evs IH]; intros shape rem out r; destruct rem as [|x rem']; cbn [client_write]; intros H.
  - injection H as <- <-. exists []; split; [reflexivity|auto].
  - injection H as <- <-. exists (x :: rem'). split; [reflexivity|discriminate].
  - injection H as <- <-. exists []; split; [reflexivity|auto].
  - destruct e as [k|].
    + destruct (client_write shape (skipn k (x :: rem')) evs) as [o r'] eqn:E. injection H as <- <-.
      destruct (IH _ _ _ _ E) as (rest & Hr). exists rest. now apply prefix_step.
    + destruct shape.
      * exact (IH _ _ _ _ H).
      * injection H as <- <-. exists (x :: rem'). split; [reflexivity|discriminate].
Qed.

Theorem client_request_write_prefix : forall data evs out r, client_request_write data evs = (out, r) ->
  exists rest, data = out ++ rest /\ (r = CDone -> out = data).
Proof. intros data evs. exact (client_write_prefix evs client_write_shape data). Qed.

(* with the bound, a transport that stops taking bytes cannot hold the client for ever: once the timeout elapses the
   call has ended (done or timed out), never still parked *)
Theorem client_write_bounded : forall evs rem out r, client_write ClientWriteBoundedByRequestTimeout rem evs = (out, r) ->
  In CTimeout evs -> r <> CParked.
Proof.
  induction evs as [|e evs IH]; intros rem out r H Hin; [destruct Hin|]. destruct rem as [|x rem']; cbn [client_write] in H.
  - injection H as <- <-. discriminate.
  - destruct e as [k|].
    + destruct (client_write ClientWriteBoundedByRequestTimeout (skipn k (x :: rem')) evs) as [o r'] eqn:E. injection H as <- <-.
      destruct Hin as [Hd|Hin]; [discriminate|]. exact (IH _ _ _ E Hin).
    + injection H as <- <-. discriminate.
Qed.

Lemma client_write_timed_out : forall evs shape rem out, client_write shape rem evs = (out, CTimedOut) -> In CTimeout evs.
Proof.
  induction evs as [|e evs IH]; intros shape rem out H; destruct rem as [|x d]; cbn [client_write] in H; try discriminate.
  destruct e as [k|]; [|now left].
  destruct (client_write shape (skipn k (x :: d)) evs) as [o2 r2] eqn:E2. injection H as _ ->. right. exact (IH _ _ _ E2).
Qed.

(* a whole connection: complete frames, then at most one cut frame - and if a frame was cut by the timeout the session is
   over: NO further frame is emitted on that connection (an I/O error ends the client session: Gen/ClientFatal) *)
Theorem client_conn_emit_shape : forall reqs out alive, client_conn_emit io_error_ends_session reqs = (out, alive) ->
  exists k cut rest, out = concat (map fst (firstn k reqs)) ++ cut /\
                     (cut = [] \/ fst (nth k reqs ([], [])) = cut ++ rest) /\
                     (alive = false -> exists evs, In CTimeout evs /\ snd (nth k reqs ([], [])) = evs).
Proof.
  change io_error_ends_session with true.
  induction reqs as [|[data evs] reqs IH]; intros out alive H; cbn [client_conn_emit] in H.
  - injection H as <- <-. exists 0, [], []. split; [reflexivity|]. split; [now left|discriminate].
  - destruct (client_request_write data evs) as [o r] eqn:E. destruct (client_request_write_prefix _ _ _ _ E) as (rest & Hd & Hdone).
    destruct r.
    + destruct (client_conn_emit true reqs) as [o' a'] eqn:E'. injection H as <- <-.
      destruct (IH _ _ eq_refl) as (k & cut & rest' & Ho & Hc & Ha). exists (S k), cut, rest'.
      cbn [firstn map concat fst nth]. split; [rewrite <- (Hdone eq_refl), Ho, app_assoc; reflexivity|]. split; assumption.
    + injection H as <- <-. exists 0, o, rest. cbn [firstn map concat app nth fst]. split; [reflexivity|]. split; [right; exact Hd|discriminate].
    + injection H as <- <-. exists 0, o, rest. cbn [firstn map concat app nth fst snd]. split; [reflexivity|]. split; [right; exact Hd|].
      intros _. exists evs. split; [exact (client_write_timed_out _ _ _ _ E)|reflexivity].
Qed.
