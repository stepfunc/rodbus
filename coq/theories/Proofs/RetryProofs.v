(* The doubling strategy (Model/Retry.v) against its Spec (Spec/RetrySpec.v): a strategy object `tracks` the number k of
   consecutive failures; one call from a tracking state returns the Spec's value and tracks the Spec's next count
   (step_refines), and every run follows by induction (strategy_refines). The task models (Proofs/RetryTaskProofs.v,
   Proofs/ClientFrontProofs.v) use step_refines call by call. *)
From Coq Require Import NArith List Lia.
From Rodbus Require Import Model.Retry Spec.RetrySpec.
Import ListNotations.
Local Open Scope N_scope.

Lemma delay_succ mn mx k : delay_spec mn mx (S k) = N.min (2 * delay_spec mn mx k) mx.
Proof.
  unfold delay_spec. rewrite Nat2N.inj_succ, N.pow_succ_r'.
  set (p := 2 ^ N.of_nat k). assert (mn * (2 * p) = 2 * (mn * p)) as -> by lia.
  destruct (N.min_spec (mn * p) mx) as [[? ->]|[? ->]]; lia.
Qed.

Lemma delay_zero mn mx : mn <= mx -> delay_spec mn mx 0 = mn.
Proof. intros H. unfold delay_spec. change (2 ^ N.of_nat 0) with 1. lia. Qed.

(* delay_spec written out: after k consecutive failures the next wait is min * 2^k capped at max *)
Lemma delay_closed_form mn mx k : delay_spec mn mx k = N.min (mn * 2 ^ N.of_nat k) mx.
Proof. reflexivity. Qed.

(* the strategy object d stands for k consecutive failures *)
Definition tracks (mn mx : N) (d : doubling) (k : nat) : Prop := dmin d = mn /\ dmax d = mx /\ cur d = delay_spec mn mx k.
(* the Spec's count after one more call *)
Definition after (k : nat) (o : op) : nat := match o with Fail => S k | Disc => k | Reset => 0%nat end.

Lemma create_tracks mn mx : mn <= mx -> tracks mn mx (create mn mx) 0.
Proof. intros H. repeat split. symmetry. now apply delay_zero. Qed.

Lemma step_refines mn mx : mn <= mx -> 2 * mx <= dur_max -> forall o d k, tracks mn mx d k ->
  exists d' v, step d o = Some (d', v) /\ tracks mn mx d' (after k o) /\
    forall r, spec mn mx k (o :: r) = v :: spec mn mx (after k o) r.
Proof.
  intros Hle Hov o d k (Hmn & Hmx & Hc). destruct o; cbn [step after spec].
  - assert (Hb : cur d <= mx) by (rewrite Hc; unfold delay_spec; lia).
    destruct (N.ltb_spec dur_max (2 * cur d)); [lia|]. eexists _, _. split; [reflexivity|]. split; [|now rewrite Hc].
    repeat split; try assumption. cbn [cur]. rewrite Hmx, Hc. symmetry. apply delay_succ.
  - exists d, (Some (dmin d)). split; [reflexivity|]. split; [now repeat split|now rewrite Hmn].
  - eexists _, _. split; [reflexivity|]. split; [|reflexivity]. repeat split; try assumption. cbn [cur]. rewrite Hmn. symmetry. now apply delay_zero.
Qed.

Lemma strategy_refines mn mx : mn <= mx -> 2 * mx <= dur_max ->
  forall ops k d, tracks mn mx d k -> run d ops = Some (spec mn mx k ops).
Proof.
  intros Hle Hov. induction ops as [|o ops IH]; intros k d Hd; [reflexivity|].
  destruct (step_refines mn mx Hle Hov o d k Hd) as (d' & v & Es & Hd' & Hs). cbn [run]. now rewrite Es, (IH _ _ Hd'), Hs.
Qed.
