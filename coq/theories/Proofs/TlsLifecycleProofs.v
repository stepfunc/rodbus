(* The expected listener paths of a TLS channel (Spec/TlsLifecycleSpec.v) against C13's automaton (Spec/Lifecycle.v):
   legality is decided on the kinds of the notifications, so it is computed on the Spec's `expected`; then the count of
   Connected notifications, the shape of a shutdown during the handshake, and the verdict function. *)
From Coq Require Import List Bool.
From Rodbus Require Import Spec.Lifecycle Spec.TlsLifecycleSpec.
Import ListNotations.

(* Whether a listener path is legal depends only on the kinds of its notifications, not on the delays the wait
   states carry: C13's automaton read on kinds. *)
Definition kedge (a b : lkind) : bool :=
  match a, b with
  | KShutdown, _ => false
  | _, KShutdown => true
  | KDisabled, KConnecting => true
  | KConnecting, (KConnected | KWaitFailed | KDisabled) => true
  | KConnected, (KWaitDisc | KDisabled) => true
  | (KWaitFailed | KWaitDisc), (KConnecting | KDisabled) => true
  | _, _ => false
  end.
Fixpoint kpath (last : lkind) (l : list lkind) : bool :=
  match l with [] => true | x :: r => kedge last x && kpath x r end.
Fixpoint klast (l : list lkind) : bool :=
  match l with
  | [] => true
  | KShutdown :: r => match r with [] => true | _ => false end
  | _ :: r => klast r
  end.

Lemma path_kinds p : forall last, path last p = kpath (kind_of last) (map kind_of p).
Proof.
  induction p as [|x p IH]; intros last; [reflexivity|]. cbn [path kpath map]. rewrite IH. f_equal. now destruct last, x.
Qed.

Lemma shutdown_last_kinds p : shutdown_last p = klast (map kind_of p).
Proof. induction p as [|x p IH]; [reflexivity|]. destruct x; cbn; try exact IH. now destruct p. Qed.

Lemma expected_ok : forall l k, kedge k KConnecting = true -> kpath k (expected l) = true /\ klast (expected l) = true.
Proof.
  induction l as [|a r IH]; intros k Hk; cbn [expected].
  - cbn. now rewrite Hk.
  - destruct a as [| |m|b]; [| |destruct m|]; cbn [kpath klast]; rewrite Hk; cbn [kedge andb]; try (now apply IH). now split.
Qed.

Lemma lkind_eqb_eq a b : lkind_eqb a b = true <-> a = b.
Proof. destruct a, b; cbn; split; intros H; try reflexivity; try discriminate H. Qed.

Lemma kinds_eqb_eq : forall a b, kinds_eqb a b = true <-> a = b.
Proof.
  induction a as [|x a IH]; destruct b as [|y b]; cbn; split; intros H; try reflexivity; try discriminate H.
  - apply andb_true_iff in H. destruct H as [H1 H2]. apply lkind_eqb_eq in H1. apply IH in H2. now subst.
  - injection H as -> ->. apply andb_true_iff. split; [now apply lkind_eqb_eq|now apply IH].
Qed.

Lemma expected_connected : forall l, length (filter (lkind_eqb KConnected) (expected l)) = established_before_shutdown l.
Proof.
  induction l as [|a r IH]; [reflexivity|]. destruct a as [| |m|b]; [| |destruct m|]; cbn; try exact IH; try reflexivity.
  now rewrite IH.
Qed.

Lemma expected_shutdown_pending : forall pre r, exists q, expected (pre ++ AHandshakePending MShutdown :: r) = q ++ [KConnecting; KShutdown].
Proof.
  induction pre as [|a pre IH]; intros r.
  - exists []. reflexivity.
  - destruct (IH r) as [q E]. cbn [app expected]. destruct a as [| |m|b]; [| |destruct m|]; rewrite ?E; try (now exists []);
      eexists; rewrite !app_comm_cons; reflexivity.
Qed.
