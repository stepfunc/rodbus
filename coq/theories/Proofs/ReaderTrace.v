(* The instrumented loop of Model/Reader.v computes exactly what the plain loop computes. *)
From Coq Require Import List.
From Rodbus Require Import Model.Buffer Model.Reader.
Import ListNotations.

Lemma next_frame_tr_fst : forall fuel r n fi, fst (next_frame_tr fuel r n fi) = next_frame fuel r n fi.
Proof.
  induction fuel as [|fuel IH]; intros r n fi; [reflexivity|]. cbn [next_frame_tr next_frame].
  destruct (parser_parse (r_parser r) (r_buf r)) as [[p' b'] res]. destruct res as [[f|]|e|]; try reflexivity.
  destruct n as [|c n'].
  - destruct (read_some b' []) as [b2 x]. reflexivity.
  - destruct (read_some b' c) as [b2 rs]. destruct rs as [k rest| |]; try reflexivity.
    destruct rest as [|y rest].
    + specialize (IH {| r_parser := p'; r_buf := b2 |} n' fi). destruct (next_frame_tr fuel _ n' fi) as [x t]. exact IH.
    + specialize (IH {| r_parser := p'; r_buf := b2 |} ((y :: rest) :: n') fi). destruct (next_frame_tr fuel _ _ fi) as [x t]. exact IH.
Qed.

Theorem run_reader_tr_fst : forall fuel resume r n fi, fst (run_reader_tr fuel resume r n fi) = run_reader fuel resume r n fi.
Proof.
  induction fuel as [|fuel IH]; intros resume r n fi; [reflexivity|]. cbn [run_reader_tr run_reader].
  pose proof (next_frame_tr_fst (nf_fuel n) r n fi) as H. destruct (next_frame_tr (nf_fuel n) r n fi) as [[[r' n'] res] t].
  cbn [fst] in H. rewrite <- H. destruct res as [f|e].
  - specialize (IH resume r' n' fi). destruct (run_reader_tr fuel resume r' n' fi) as [[l e] t']. cbn [fst] in *. now rewrite <- IH.
  - destruct e; try reflexivity. destruct resume; [|reflexivity].
    specialize (IH true r' n' fi). destruct (run_reader_tr fuel true r' n' fi) as [[l e'] t']. cbn [fst] in *. now rewrite <- IH.
Qed.

Corollary run_session_tr_fst k resume n fi : fst (run_session_tr k resume n fi) = run_session k resume n fi.
Proof. apply run_reader_tr_fst. Qed.
