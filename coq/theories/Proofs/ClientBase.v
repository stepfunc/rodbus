(* Shared lemmas about the client task model.  Each of `finish`, `transmit`, `take` and `step` ends in one of
   a few leaves.  Three views of them serve the invariants of the task: the leaves themselves as relations with
   named constructors (`finished`, `transmits`, `takes`, `steps`, with `finish_finished` ... `step_steps`: the
   result of the function is in the relation), by which an invariant is proved leaf by leaf; `summary` (what a
   helper transition does to the queue and to the completions: C10, C11), with `take_shape` / `step_shape`; and
   `noted` (what the listener can see of a step, up to the outputs it ignores: C13), with `step_seen`. *)
From Coq Require Import NArith List Bool.
From Rodbus Require Import Model.Retry Spec.Lifecycle Gen.SessionErrors Model.ClientTask.
Import ListNotations.
Local Open Scope N_scope.

Lemma completed_app a b : completed (a ++ b) = completed a ++ completed b.
Proof. apply flat_map_app. Qed.
Lemma queued_app a b : queued (a ++ b) = queued a ++ queued b.
Proof. apply flat_map_app. Qed.
Lemma wire_ids_app a b : wire_ids (a ++ b) = wire_ids a ++ wire_ids b.
Proof. apply flat_map_app. Qed.
Lemma stamps_app a b : stamps (a ++ b) = stamps a ++ stamps b.
Proof. apply flat_map_app. Qed.
Lemma listens_app a b : listens_of (a ++ b) = listens_of a ++ listens_of b.
Proof. apply flat_map_app. Qed.

Lemma completed_drop q : completed (drop_queue q) = queued q.
Proof. induction q as [|c q IH]; [reflexivity|]. destruct c; cbn; try assumption. f_equal. assumption. Qed.
Lemma wire_ids_drop q : wire_ids (drop_queue q) = [].
Proof. induction q as [|c q IH]; [reflexivity|]. destruct c; cbn; assumption. Qed.
Lemma stamps_drop q : stamps (drop_queue q) = [].
Proof. induction q as [|c q IH]; [reflexivity|]. destruct c; cbn; assumption. Qed.
Lemma listens_drop q : listens_of (drop_queue q) = [].
Proof. induction q as [|c q IH]; [reflexivity|]. destruct c; cbn; assumption. Qed.
Lemma in_drop_queue x q : In x (drop_queue q) -> exists id, x = OComplete id (RErr drop_error).
Proof.
  induction q as [|c q IH]; cbn; [tauto|]. destruct c; cbn; auto.
  intros [<-|H]; [eexists; reflexivity|auto].
Qed.

Lemma completed_cons x o : completed (x :: o) = match x with OComplete id _ => [id] | _ => [] end ++ completed o.
Proof. reflexivity. Qed.
Lemma queued_cons c q : queued (c :: q) = match c with CReq r => [rq_id r] | _ => [] end ++ queued q.
Proof. reflexivity. Qed.
Lemma wire_ids_cons x o : wire_ids (x :: o) = match x with OWire _ id => [id] | _ => [] end ++ wire_ids o.
Proof. reflexivity. Qed.
Lemma stamps_cons x o : stamps (x :: o) = match x with OStamp tx _ => [tx] | _ => [] end ++ stamps o.
Proof. reflexivity. Qed.
Lemma listens_cons x o : listens_of (x :: o) = match x with OListen l => [l] | _ => [] end ++ listens_of o.
Proof. reflexivity. Qed.

Lemma NoDup_app_inv {A} (a b : list A) : NoDup (a ++ b) -> NoDup a /\ NoDup b /\ (forall x, In x a -> In x b -> False).
Proof.
  induction a as [|y a IH]; cbn; intros H; [repeat split; [constructor|exact H|intros x []]|].
  inversion H as [|z l Hnot Hn]; subst. destruct (IH Hn) as (Ha & Hb & Hd). repeat split; [|exact Hb|].
  - constructor; [|exact Ha]. intros Hin. apply Hnot, in_or_app. left. exact Hin.
  - intros x [->|Hx] Hx'; [apply Hnot, in_or_app; right; exact Hx'|exact (Hd x Hx Hx')].
Qed.

(* ticking the clock by what is missing to an instant makes a timer for that instant due *)
Lemma due_after_tick a b : (a <=? b + (a - b)) = true.
Proof. apply N.leb_le. rewrite N.add_comm. apply N.sub_add_le. Qed.

(* The model writes "run helper h, with the outputs `pre` in front" as `let '(s', o) := h in (s', pre ++ o)`.  `emit pre h`
   is the same thing as an application, so that what is known about `h` can be applied under it; `let_emit` turns the one
   into the other. *)
Definition emit (pre : list output) (r : state * list output) : state * list output := (fst r, pre ++ snd r).
Lemma let_emit pre (r : state * list output) : (let '(s', o) := r in (s', pre ++ o)) = emit pre r.
Proof. destruct r. reflexivity. Qed.

Lemma let_pair {A B} (r : A * B) (Q : A -> B -> Prop) : Q (fst r) (snd r) -> let '(a, b) := r in Q a b.
Proof. destruct r. exact (fun H => H). Qed.

(* a run by projections: what the first step puts out, then the rest from where it leads *)
Lemma run_cons cfg s e es : run cfg s (e :: es) =
  (fst (run cfg (fst (step cfg s e)) es), snd (step cfg s e) ++ snd (run cfg (fst (step cfg s e)) es)).
Proof. cbn [run]. destruct (step cfg s e) as [s1 o1]. cbn [fst snd]. now destruct (run cfg s1 es). Qed.

Lemma phase_done_dec (p : phase) : {p = PDone} + {p <> PDone}.
Proof. destruct p; [right; discriminate..|left; reflexivity]. Qed.

Definition is_submit (e : event) : bool := match e with EvSubmit _ _ => true | _ => false end.
Definition is_setting (c : command) : bool := match c with CEnable | CDisable | CDecode _ => true | _ => false end.
Lemma queued_setting c : is_setting c = true -> queued [c] = [].
Proof. destruct c; try discriminate; reflexivity. Qed.

(* the state after rx.recv() has taken the head of the queue: the first waiting sender gets the free slot *)
Definition popped (s : state) (q : list command) : state := set_chan s (q ++ firstn 1 (blocked s)) (skipn 1 (blocked s)).

Lemma popped_queued s c q : queue s = c :: q ->
  queued [c] ++ queued (queue (popped s q)) ++ queued (blocked (popped s q)) = queued (queue s) ++ queued (blocked s).
Proof.
  intros ->. cbn [popped queue blocked set_chan]. rewrite (queued_cons c q), (queued_cons c []), queued_app, <- !app_assoc, <- (queued_app (firstn 1 (blocked s))), firstn_skipn.
  reflexivity.
Qed.

(* Two frames.  `same_chan s s0`: `s0` is `s` with another phase, setting or flag - the state a helper transition is run from.
   `quiet s s'`: what an event of the environment leaves alone (EvDropHandle is one of them, hence no `handles`). *)
Definition same_chan (s s' : state) : Prop :=
  queue s' = queue s /\ blocked s' = blocked s /\ txid s' = txid s /\ handles s' = handles s /\ retry s' = retry s.
Definition quiet (s s' : state) : Prop :=
  ph s' = ph s /\ queue s' = queue s /\ blocked s' = blocked s /\ txid s' = txid s /\ enabled s' = enabled s /\ retry s' = retry s.

Lemma same_chan_queue s s' : same_chan s s' -> queue s' = queue s. Proof. intros H. apply H. Qed.
Lemma same_chan_blocked s s' : same_chan s s' -> blocked s' = blocked s. Proof. intros H. apply H. Qed.
Lemma same_chan_txid s s' : same_chan s s' -> txid s' = txid s. Proof. intros H. apply H. Qed.
Lemma same_chan_handles s s' : same_chan s s' -> handles s' = handles s. Proof. intros H. apply H. Qed.
Lemma same_chan_retry s s' : same_chan s s' -> retry s' = retry s. Proof. intros H. apply H. Qed.
Lemma quiet_ph s s' : quiet s s' -> ph s' = ph s. Proof. intros H. apply H. Qed.
Lemma quiet_queue s s' : quiet s s' -> queue s' = queue s. Proof. intros H. apply H. Qed.
Lemma quiet_blocked s s' : quiet s s' -> blocked s' = blocked s. Proof. intros H. apply H. Qed.
Lemma quiet_txid s s' : quiet s s' -> txid s' = txid s. Proof. intros H. apply H. Qed.
Lemma quiet_enabled s s' : quiet s s' -> enabled s' = enabled s. Proof. intros H. apply H. Qed.
Lemma quiet_retry s s' : quiet s s' -> retry s' = retry s. Proof. intros H. apply H. Qed.

(* The leaves of `finish`, `transmit`, `take` and `step`, one constructor each.  The relations hold of what the
   functions return (`step_steps` etc.), not conversely: a few constructors (`st_blocked`, `st_crash`, `st_written`,
   `tm_written`, `tm_writing`) say less than the function does in that case, which is all the invariants need. *)
Inductive finished (s : state) (r : request) (res : result) : state * list output -> Prop :=
| fi_alive t : (forall e, res = RErr e -> from_request_err e = None) ->
    finished s r res (set_tc (set_ph s PIdle) t, [OComplete (rq_id r) res])
| fi_ended s0 e se : same_chan s s0 -> ph s0 = PIdle -> enabled s0 = enabled s -> res = RErr e ->
    from_request_err e = Some se \/ from_request_err e = None /\ se = SeMaxTimeouts ->
    finished s r res (emit [OComplete (rq_id r) res] (end_session s0 se)).

Lemma finish_finished s r res : finished s r res (finish s r res).
Proof.
  cbv beta zeta delta [finish]. destruct res as [|e]; [apply fi_alive; discriminate|].
  destruct (from_request_err e) as [se|] eqn:Ef.
  - rewrite let_emit. apply (fi_ended _ _ _ _ e se); auto; repeat split.
  - assert (Hn : forall e', RErr e = RErr e' -> from_request_err e' = None) by (intros e' E; inversion E; subst; exact Ef).
    destruct (request_error_beq e counted_error); [|apply fi_alive; exact Hn].
    destruct (tc_increment (tcount (set_ph s PIdle))) as [t' stop]. destruct stop; [|apply fi_alive; exact Hn].
    rewrite let_emit. apply (fi_ended _ _ _ _ e SeMaxTimeouts); auto; repeat split.
Qed.

(* tx_id.next(): the id given out, and the state after it *)
Definition next_tx (s : state) : N := snd (txid_next (txid s)).
Definition stamped (s : state) : state := set_txid s (fst (txid_next (txid s))).

Inductive transmits (s : state) (r : request) : state * list output -> Prop :=
| tm_unformattable : rq_kind r = KUnformattable ->
    transmits s r (emit [OStamp (next_tx s) (rq_id r)] (finish (stamped s) r (RErr ReBadRequest)))
| tm_write_failed : rq_kind r = KRead -> wfail s = true ->
    transmits s r (emit [OStamp (next_tx s) (rq_id r); OWireFail (next_tx s) (rq_id r)] (finish (set_wctl (stamped s) false 0) r (RErr ReIo)))
| tm_written :
    transmits s r (set_ph (stamped s) (PInFlight r (next_tx s) (now s + rq_timeout r)), [OStamp (next_tx s) (rq_id r); OWire (next_tx s) (rq_id r)])
| tm_writing u :
    transmits s r (set_wdl (set_wctl (set_ph (stamped s) (PWriting r (next_tx s) u)) false 0) (now s + rq_timeout r), [OStamp (next_tx s) (rq_id r)]).

Lemma transmit_transmits s r : transmits s r (transmit s r).
Proof.
  pose proof (tm_unformattable s r) as Hu. pose proof (tm_write_failed s r) as Hf. pose proof (tm_written s r) as Hn. pose proof (tm_writing s r) as Hw.
  unfold next_tx, stamped, transmit in *. destruct (txid_next (txid s)) as [v' tx]. cbn [fst snd] in *.
  destruct (rq_kind r).
  - destruct (wfail (set_txid s v')) eqn:Ef.
    + rewrite (let_emit [OStamp tx (rq_id r); OWireFail tx (rq_id r)]). apply Hf; [reflexivity|exact Ef].
    + destruct (write_now (set_txid s v')); [exact Hn|apply Hw].
  - rewrite (let_emit [OStamp tx (rq_id r)]). apply Hu. reflexivity.
Qed.

(* in the four constructors for a setting command `s1` is `s` after the setting *)
Inductive takes (s : state) : command -> state * list output -> Prop :=
| tk_fail_fast r : connected (ph s) = false -> takes s (CReq r) (s, [OComplete (rq_id r) (RErr not_connected_error)])
| tk_transmit r : ph s = PIdle -> takes s (CReq r) (transmit s r)
| tk_shutdown_idle : ph s = PIdle -> takes s CShutdown (end_session s SeShutdown)
| tk_shutdown_down : connected (ph s) = false -> takes s CShutdown (terminate s [])
| tk_set c s1 : is_setting c = true -> same_chan s s1 -> ph s1 = ph s ->
    enabled s1 = true /\ ph s <> PWaitEnabled \/ enabled s1 = false /\ ph s = PWaitEnabled -> takes s c (s1, [])
| tk_enabled c s1 : is_setting c = true -> same_chan s s1 -> ph s1 = ph s -> enabled s1 = true -> ph s = PWaitEnabled ->
    takes s c (start_connecting s1)
| tk_disabled_idle c s1 : is_setting c = true -> same_chan s s1 -> ph s1 = ph s -> enabled s1 = false -> ph s = PIdle ->
    takes s c (end_session s1 SeDisabled)
| tk_disabled_down c s1 : is_setting c = true -> same_chan s s1 -> ph s1 = ph s -> enabled s1 = false ->
    connected (ph s) = false -> ph s <> PWaitEnabled -> takes s c (loop_top s1).

Lemma take_takes s c : listens (ph s) = true -> takes s c (take s c).
Proof.
  intros Hl.
  assert (Hset : forall c, is_setting c = true -> same_chan s (change_setting s c) /\ ph (change_setting s c) = ph s)
    by (intros c0; destruct c0; try discriminate; repeat split).
  (* the three ways a setting command is handled, by where the task listens *)
  assert (Hwe : ph s = PWaitEnabled -> forall c, is_setting c = true ->
            takes s c (let s1 := change_setting s c in if enabled s1 then start_connecting s1 else (s1, []))).
  { intros Hp c0 Hc. destruct (Hset c0 Hc) as [H1 H2]. cbv zeta. destruct (enabled (change_setting s c0)) eqn:Ee; [apply tk_enabled|apply tk_set]; auto. }
  assert (Hid : ph s = PIdle -> forall c, is_setting c = true ->
            takes s c (let s1 := change_setting s c in if enabled s1 then (s1, []) else end_session s1 SeDisabled)).
  { intros Hp c0 Hc. destruct (Hset c0 Hc) as [H1 H2]. cbv zeta. destruct (enabled (change_setting s c0)) eqn:Ee; [apply tk_set|apply tk_disabled_idle]; auto.
    left. split; [exact Ee|]. rewrite Hp. discriminate. }
  assert (Hdn : connected (ph s) = false -> ph s <> PWaitEnabled -> forall c, is_setting c = true ->
            takes s c (let s1 := change_setting s c in if enabled s1 then (s1, []) else loop_top s1)).
  { intros Hp Hn c0 Hc. destruct (Hset c0 Hc) as [H1 H2]. cbv zeta.
    destruct (enabled (change_setting s c0)) eqn:Ee; [apply tk_set|apply tk_disabled_down]; auto. }
  assert (Hff : forall r, connected (ph s) = false -> takes s (CReq r) (s, [OComplete (rq_id r) (RErr not_connected_error)]))
    by (intros; apply tk_fail_fast; assumption).
  pose proof (tk_transmit s) as Htx. pose proof (tk_shutdown_idle s) as Hsi. pose proof (tk_shutdown_down s) as Hsd.
  unfold take. destruct (ph s) eqn:Eph; try discriminate Hl.
  - (* PWaitEnabled *)
    destruct c; [apply Hff|apply (Hwe eq_refl CEnable)|apply (Hwe eq_refl CDisable)|apply (Hwe eq_refl (CDecode l))|apply Hsd]; reflexivity.
  - (* PConnecting *) assert (Hn : PConnecting <> PWaitEnabled) by discriminate.
    destruct c; [apply Hff|apply (Hdn eq_refl Hn CEnable)|apply (Hdn eq_refl Hn CDisable)|apply (Hdn eq_refl Hn (CDecode l))|apply Hsd]; reflexivity.
  - (* PIdle *)
    destruct c; [apply Htx|apply (Hid eq_refl CEnable)|apply (Hid eq_refl CDisable)|apply (Hid eq_refl (CDecode l))|apply Hsi]; reflexivity.
  - (* PWaiting *) assert (Hn : PWaiting until <> PWaitEnabled) by discriminate.
    destruct c; [apply Hff|apply (Hdn eq_refl Hn CEnable)|apply (Hdn eq_refl Hn CDisable)|apply (Hdn eq_refl Hn (CDecode l))|apply Hsd]; reflexivity.
Qed.

Section Cases.
Variable cfg : config.

Definition read_error (s : state) (e : event) (err : request_error) : Prop :=
  e = EvGarbage /\ partial s = None /\ err = ReBadFrame \/ (e = EvEof \/ e = EvIoErr) /\ err = ReIo.

(* `finishes s e s0 r res`: the event ends the exchange of the outstanding request `r` with `res`,
   and run_one_request goes on from `s0` *)
Inductive finishes (s : state) : event -> state -> request -> result -> Prop :=
| fin_frame r tx d k : ph s = PInFlight r tx d -> partial s = None -> finishes s (EvFrame tx k) s r (respond k)
| fin_tail r tx d k : ph s = PInFlight r tx d -> partial s = Some (tx, k) -> finishes s EvTail (set_partial s None) r (respond k)
| fin_read r tx d e err : ph s = PInFlight r tx d -> read_error s e err -> finishes s e s r (RErr err)
| fin_deadline r tx d : ph s = PInFlight r tx d -> fire cfg d <= now s -> finishes s EvTimer s r (RErr deadline_error)
| fin_wtimeout r tx u : ph s = PWriting r tx u -> fire cfg (wdl s) <= now s -> finishes s EvTimer s r (RErr write_timeout_error).

Lemma finishes_frame s e s0 r res : finishes s e s0 r res ->
  is_submit e = false /\ same_chan s s0 /\ ph s0 = ph s /\ enabled s0 = enabled s /\ inflight (ph s) = [rq_id r].
Proof.
  intros [r0 tx d k Hp _|r0 tx d k Hp _|r0 tx d e0 err Hp He|r0 tx d Hp _|r0 tx u Hp _]; repeat split; try (rewrite Hp; reflexivity).
  destruct He as [(-> & _)|([-> | ->] & _)]; reflexivity.
Qed.

Lemma finishes_inflight s e s0 r res : finishes s e s0 r res -> inflight (ph s) = [rq_id r].
Proof. intros H. apply (finishes_frame _ _ _ _ _ H). Qed.

Inductive steps (s : state) : event -> state * list output -> Prop :=
| st_quiet e s' : is_submit e = false -> quiet s s' -> steps s e (s', [])
| st_nohandle c st : Nat.eqb (handles s) 0 = true -> steps s (EvSubmit c st) (s, [])
| st_dropped c st : Nat.eqb (handles s) 0 = false -> ph s = PDone \/ st = SFfi -> steps s (EvSubmit c st) (s, drop_queue [c])
| st_queued c st : Nat.eqb (handles s) 0 = false -> ph s <> PDone -> blocked s = [] ->
    steps s (EvSubmit c st) (set_chan s (queue s ++ [c]) (blocked s), [])
| st_blocked c st : Nat.eqb (handles s) 0 = false -> ph s <> PDone -> steps s (EvSubmit c st) (set_chan s (queue s) (blocked s ++ [c]), [])
| st_take c q : listens (ph s) = true -> queue s = c :: q -> steps s EvRecv (take (popped s q) c)
| st_closed_idle : queue s = [] -> closed s = true -> ph s = PIdle -> steps s EvRecv (end_session s SeShutdown)
| st_closed_down : queue s = [] -> closed s = true -> listens (ph s) = true -> connected (ph s) = false -> steps s EvRecv (terminate s [])
| st_connected s1 d : ph s = PConnecting -> retry_call s Reset = Some (s1, d) ->
    steps s (EvConnect true) (set_partial (set_tc (set_ph s1 PIdle) (tc_reset (tcount s1))) None, [OListen LConnected])
| st_refused : ph s = PConnecting -> steps s (EvConnect false) (wait_for s LWaitFailed Fail [])
| st_crash e : is_submit e = false -> ph s <> PDone -> steps s e (crash s)
| st_finish e s0 r res : finishes s e s0 r res -> steps s e (finish s0 r res)
| st_read_error_idle e err se : ph s = PIdle -> read_error s e err -> from_request_err err = Some se -> steps s e (end_session s se)
| st_written r tx u : ph s = PWriting r tx u -> steps s EvTimer (written s r tx)
| st_released r tx u n : ph s = PWriting r tx u -> wpark s = S n -> steps s EvWriteRelease (written (set_wpark s n) r tx)
| st_wait_over u : ph s = PWaiting u -> fire cfg u <= now s -> steps s EvTimer (loop_top s).

Lemma step_steps s e : steps s e (step cfg s e).
Proof.
  assert (Hnil : forall e, is_submit e = false -> steps s e (s, [])) by (intros e0 E; apply st_quiet; [exact E|repeat split]).
  assert (Hre : forall e err, reading (ph s) = true -> read_error s e err -> is_submit e = false -> err = ReIo \/ err = ReBadFrame ->
            steps s e (on_read_error s err)).
  { intros e0 err Hr He Hs Herr. unfold on_read_error. destruct (ph s) eqn:Eph; try discriminate Hr.
    - destruct Herr as [-> | ->]; apply (st_read_error_idle s e0 _ _ Eph He eq_refl).
    - apply st_finish. eapply fin_read; eauto. }
  destruct e as [c st| | |ok|tx k|tx k| | | | | |dt| |dt| | |k| ]; cbn [step].
  - (* EvSubmit *) destruct (Nat.eqb (handles s) 0) eqn:Eh; [apply st_nohandle; exact Eh|].
    assert (Hlive : ph s <> PDone -> steps s (EvSubmit c st)
      (if is_nil (blocked s) && Nat.ltb (length (queue s)) (cfg_cap cfg) then (set_chan s (queue s ++ [c]) (blocked s), [])
       else match st with SFfi => (s, drop_queue [c]) | _ => (set_chan s (queue s) (blocked s ++ [c]), []) end)).
    { intros Hn. destruct (is_nil (blocked s) && Nat.ltb (length (queue s)) (cfg_cap cfg)) eqn:Ec.
      - apply st_queued; auto. apply andb_prop in Ec. destruct (blocked s); [reflexivity|destruct Ec; discriminate].
      - destruct st; [apply st_blocked; auto|apply st_blocked; auto|apply st_dropped; auto]. }
    destruct (ph s) eqn:Eph; try (apply Hlive; discriminate). apply st_dropped; auto.
  - (* EvDropHandle *) apply st_quiet; [reflexivity|repeat split].
  - (* EvRecv *) destruct (listens (ph s)) eqn:El; [|apply Hnil; reflexivity].
    destruct (queue s) as [|c q] eqn:Eq; [|apply st_take; auto].
    destruct (closed s) eqn:Ec; [|apply Hnil; reflexivity].
    destruct (ph s) eqn:Eph; try discriminate El; [apply st_closed_down|apply st_closed_down|apply st_closed_idle|apply st_closed_down]; auto;
      rewrite Eph; reflexivity.
  - (* EvConnect *) destruct (ph s) eqn:Eph; try (apply Hnil; reflexivity). destruct ok; [|apply st_refused; exact Eph].
    destruct (retry_call s Reset) as [[s1 d]|] eqn:Er; [apply (st_connected s s1 d); auto|apply st_crash; [reflexivity|rewrite Eph; discriminate]].
  - (* EvFrame *) destruct (reading (ph s)); [|apply Hnil; reflexivity]. destruct (partial s) eqn:Ep; [apply Hnil; reflexivity|].
    unfold on_frame. destruct (ph s) eqn:Eph; try (apply Hnil; reflexivity).
    destruct (N.eqb_spec tx tx0) as [->|_]; [|apply Hnil; reflexivity]. apply st_finish. eapply fin_frame; eauto.
  - (* EvHead *) destruct (reading (ph s)); [|apply Hnil; reflexivity]. destruct (partial s); [apply Hnil; reflexivity|].
    apply st_quiet; [reflexivity|repeat split].
  - (* EvTail *) destruct (reading (ph s)); [|apply Hnil; reflexivity]. destruct (partial s) as [[tx k]|] eqn:Ep; [|apply Hnil; reflexivity].
    unfold on_frame. cbn [ph set_partial]. destruct (ph s) eqn:Eph; try (apply st_quiet; [reflexivity|repeat split]; fail).
    destruct (N.eqb_spec tx tx0) as [->|_]; [|apply st_quiet; [reflexivity|repeat split]]. apply st_finish. eapply fin_tail; eauto.
  - (* EvGarbage *) destruct (reading (ph s)) eqn:Er; [|apply Hnil; reflexivity]. destruct (partial s) eqn:Ep; [apply Hnil; reflexivity|].
    apply Hre; auto. left. auto.
  - (* EvEof *) destruct (reading (ph s)) eqn:Er; [|apply Hnil; reflexivity]. apply Hre; auto. right. auto.
  - (* EvIoErr *) destruct (reading (ph s)) eqn:Er; [|apply Hnil; reflexivity]. apply Hre; auto. right. auto.
  - (* EvFailWrite *) apply st_quiet; [reflexivity|repeat split].
  - (* EvWriteDelay *) apply st_quiet; [reflexivity|repeat split].
  - (* EvTimer *) destruct (ph s) eqn:Eph; try (apply Hnil; reflexivity).
    + destruct (Nat.eqb (wpark s) 0 && (fire cfg until <=? now s)); [eapply st_written; exact Eph|].
      destruct (N.leb_spec (fire cfg (wdl s)) (now s)); [|apply Hnil; reflexivity]. apply st_finish. eapply fin_wtimeout; eauto.
    + destruct (N.leb_spec (fire cfg deadline) (now s)); [|apply Hnil; reflexivity]. apply st_finish. eapply fin_deadline; eauto.
    + destruct (N.leb_spec (fire cfg until) (now s)); [eapply st_wait_over; [exact Eph|assumption]|apply Hnil; reflexivity].
  - (* EvTick *) apply st_quiet; [reflexivity|repeat split].
  - (* EvAbort *) destruct (ph s) eqn:Eph; try (apply st_crash; [reflexivity|rewrite Eph; discriminate]). apply Hnil. reflexivity.
  - (* EvWritePark *) apply st_quiet; [reflexivity|repeat split].
  - (* EvWritePartial *) apply Hnil. reflexivity.
  - (* EvWriteRelease *) destruct (wpark s) as [|n] eqn:Ew; [apply Hnil; reflexivity|]. cbn [ph set_wpark].
    destruct (ph s) eqn:Eph; try (apply st_quiet; [reflexivity|repeat split]; fail).
    destruct (Nat.eqb n 0 && _); [eapply st_released; [exact Eph|exact Ew]|apply st_quiet; [reflexivity|repeat split]].
Qed.

End Cases.

(* what the helper transitions (terminate, crash, loop_top, wait_for, end_session, finish) have in common; `ids` are the
   requests that complete besides those dropped with the queue *)
Definition summary (s : state) (r : state * list output) (ids : list nat) : Prop :=
  inflight (ph (fst r)) = [] /\ wire_ids (snd r) = [] /\ stamps (snd r) = [] /\ txid (fst r) = txid s /\ handles (fst r) = handles s /\
  ((ph (fst r) <> PDone /\ queue (fst r) = queue s /\ blocked (fst r) = blocked s /\ completed (snd r) = ids) \/
   (ph (fst r) = PDone /\ queue (fst r) = [] /\ blocked (fst r) = [] /\ completed (snd r) = ids ++ queued (queue s) ++ queued (blocked s))).

Definition silent (pre : list output) := wire_ids pre = [] /\ stamps pre = [].

Lemma summary_inflight s r ids : summary s r ids -> inflight (ph (fst r)) = [].
Proof. intros H. apply H. Qed.
Lemma summary_wire s r ids : summary s r ids -> wire_ids (snd r) = [].
Proof. intros H. apply H. Qed.
Lemma summary_completes s r ids id : summary s r ids -> In id ids -> In id (completed (snd r)).
Proof. intros (_ & _ & _ & _ & _ & [(_ & _ & _ & ->)|(_ & _ & _ & ->)]) H; [exact H|apply in_or_app; left; exact H]. Qed.

Lemma summary_emit s r ids pre : silent pre -> summary s r ids -> summary s (emit pre r) (completed pre ++ ids).
Proof.
  intros [Hw Hs] (H1 & H2 & H3 & H4 & H5 & H6). unfold summary, emit. cbn [fst snd].
  rewrite wire_ids_app, stamps_app, completed_app, Hw, Hs, H2, H3. repeat split; try assumption.
  destruct H6 as [(Hn & Hq & Hb & Hc)|(Hn & Hq & Hb & Hc)]; [left|right]; repeat split; try assumption; rewrite Hc, ?app_assoc; reflexivity.
Qed.

Lemma summary_pre_state s0 s r ids : same_chan s s0 -> summary s0 r ids -> summary s r ids.
Proof. unfold summary. intros (-> & -> & -> & -> & _). auto. Qed.

Lemma summary_alive s s' o ids : inflight (ph s') = [] -> ph s' <> PDone ->
  queue s' = queue s /\ blocked s' = blocked s /\ txid s' = txid s /\ handles s' = handles s -> silent o -> completed o = ids ->
  summary s (s', o) ids.
Proof. intros Hi Hn (Hq & Hb & Ht & Hh) [Hw Hs] Hc. repeat split; try assumption. left. auto. Qed.

Lemma summary_gone s o ids : silent o -> completed o = ids ++ queued (queue s ++ blocked s) ->
  summary s (set_chan (set_ph s PDone) [] [], o) ids.
Proof. intros [Hw Hs] Hc. rewrite queued_app in Hc. repeat split; try assumption. right. repeat split. exact Hc. Qed.

Section Helpers.
Variable cfg : config.

Lemma terminate_summary s pre : silent pre -> summary s (terminate s pre) (completed pre).
Proof.
  intros [Hw Hs]. apply summary_gone; [split|]; cbn [app].
  - rewrite wire_ids_app, wire_ids_cons, wire_ids_drop, Hw. reflexivity.
  - rewrite stamps_app, stamps_cons, stamps_drop, Hs. reflexivity.
  - rewrite completed_app, completed_cons, completed_drop. reflexivity.
Qed.

Lemma map_drop_outputs (l : list request) : let o := map (fun r => OComplete (rq_id r) (RErr drop_error)) l in
  completed o = map rq_id l /\ wire_ids o = [] /\ stamps o = [] /\ listens_of o = [].
Proof.
  induction l as [|x l (H1 & H2 & H3 & H4)]; [repeat split|]. cbn [map]. rewrite completed_cons, wire_ids_cons, stamps_cons, listens_cons, H1, H2, H3, H4.
  repeat split.
Qed.

Lemma crash_summary s : summary s (crash s) (inflight (ph s)).
Proof.
  destruct (map_drop_outputs (inflight_req (ph s))) as (Hc & Hw & Hs & _). apply summary_gone; [split|].
  - rewrite wire_ids_app, wire_ids_drop, Hw. reflexivity.
  - rewrite stamps_app, stamps_drop, Hs. reflexivity.
  - rewrite completed_app, completed_drop, Hc. reflexivity.
Qed.

Lemma loop_top_summary s : summary s (loop_top s) [].
Proof.
  unfold loop_top, start_connecting. destruct (enabled s); apply summary_alive; try reflexivity; try discriminate; repeat split.
Qed.

Lemma retry_call_frame s o s1 d : retry_call s o = Some (s1, d) ->
  ph s1 = ph s /\ queue s1 = queue s /\ blocked s1 = blocked s /\ txid s1 = txid s /\ handles s1 = handles s /\
  enabled s1 = enabled s /\ now s1 = now s /\ tcount s1 = tcount s /\ partial s1 = partial s.
Proof.
  unfold retry_call. destruct (Retry.step (retry s) o) as [[d' [v|]]|]; intros E; inversion E; subst; cbn; repeat split.
Qed.

Lemma retry_call_enabled s o s1 d : retry_call s o = Some (s1, d) -> enabled s1 = enabled s.
Proof. intros H. apply (retry_call_frame _ _ _ _ H). Qed.

Lemma wait_for_summary s l o pre : inflight (ph s) = [] -> silent pre -> summary s (wait_for s l o pre) (completed pre).
Proof.
  intros Hi Hp. unfold wait_for. destruct (retry_call s o) as [[s1 d]|] eqn:E.
  - destruct Hp as [Hw Hs]. apply retry_call_frame in E. destruct E as (_ & Hq & Hb & Ht & Hh & _).
    apply summary_alive; [reflexivity|discriminate|repeat split; assumption|split|].
    + rewrite wire_ids_app, Hw. reflexivity.
    + rewrite stamps_app, Hs. reflexivity.
    + rewrite completed_app. apply app_nil_r.
  - rewrite let_emit, <- (app_nil_r (completed pre)), <- Hi. apply summary_emit; [exact Hp|apply crash_summary].
Qed.

Lemma end_session_summary s e : inflight (ph s) = [] -> summary s (end_session s e) [].
Proof.
  intros Hi. unfold end_session. destruct e; try (apply (wait_for_summary s LWaitDisc Disc [OEnd _] Hi); split; reflexivity).
  - rewrite (let_emit [OEnd SeDisabled]). apply (summary_emit s _ [] [OEnd SeDisabled]); [split; reflexivity|apply loop_top_summary].
  - apply (terminate_summary s [OEnd SeShutdown]). split; reflexivity.
Qed.

Lemma finish_summary s r res : summary s (finish s r res) [rq_id r].
Proof.
  destruct (finish_finished s r res) as [t _|s0 e se Hc Hp _ _ _].
  - (* fi_alive *) apply summary_alive; try reflexivity; [discriminate|repeat split..].
  - (* fi_ended *) apply (summary_emit s _ [] [OComplete (rq_id r) res]); [split; reflexivity|].
    apply (summary_pre_state s0); [exact Hc|]. apply end_session_summary. rewrite Hp. reflexivity.
Qed.

Lemma finish_head s r res : exists o, snd (finish s r res) = OComplete (rq_id r) res :: o.
Proof. destruct (finish_finished s r res); eexists; reflexivity. Qed.

Lemma finish_completes s r res : In (rq_id r) (completed (snd (finish s r res))).
Proof. destruct (finish_head s r res) as [o ->]. left. reflexivity. Qed.

(* For what is counted (C10, C11) a command taken from the queue is one of four things, and a step one of eight: the
   helper transitions all appear as their `summary`. *)
Inductive take_shape (s : state) : command -> state * list output -> Prop :=
| tsh_set c s1 : is_setting c = true -> same_chan s s1 -> ph s1 = ph s -> take_shape s c (s1, [])
| tsh_fail_fast r : connected (ph s) = false -> take_shape s (CReq r) (s, [OComplete (rq_id r) (RErr not_connected_error)])
| tsh_summary c r : queued [c] = [] -> summary s r [] -> take_shape s c r
| tsh_transmit r : ph s = PIdle -> take_shape s (CReq r) (transmit s r).

Lemma take_has_shape s c : listens (ph s) = true -> take_shape s c (take s c).
Proof.
  intros Hl. destruct (take_takes s c Hl) as [r Hc|r Hp|Hp|Hc|c s1 Hc Hsc Hp He|c s1 Hc Hsc Hp He Hw|c s1 Hc Hsc Hp He Hi|c s1 Hc Hsc Hp He Hd Hn].
  - (* tk_fail_fast *) apply tsh_fail_fast, Hc.
  - (* tk_transmit *) apply tsh_transmit, Hp.
  - (* tk_shutdown_idle *) apply tsh_summary; [reflexivity|]. apply end_session_summary. rewrite Hp. reflexivity.
  - (* tk_shutdown_down *) apply tsh_summary; [reflexivity|]. apply (terminate_summary s []). split; reflexivity.
  - (* tk_set *) apply tsh_set; assumption.
  - (* tk_enabled *) apply tsh_summary; [apply queued_setting, Hc|]. apply (summary_pre_state s1 s _ _ Hsc).
    pose proof (loop_top_summary s1) as H. unfold loop_top in H. rewrite He in H. exact H.
  - (* tk_disabled_idle *) apply tsh_summary; [apply queued_setting, Hc|]. apply (summary_pre_state s1 s _ _ Hsc).
    apply end_session_summary. rewrite Hp, Hi. reflexivity.
  - (* tk_disabled_down *) apply tsh_summary; [apply queued_setting, Hc|]. apply (summary_pre_state s1 s _ _ Hsc), loop_top_summary.
Qed.

Inductive step_shape (s : state) : event -> state * list output -> Prop :=
| ssh_nohandle c st : Nat.eqb (handles s) 0 = true -> step_shape s (EvSubmit c st) (s, [])
| ssh_dropped c st : Nat.eqb (handles s) 0 = false -> step_shape s (EvSubmit c st) (s, drop_queue [c])
| ssh_queued c st : Nat.eqb (handles s) 0 = false -> ph s <> PDone -> blocked s = [] ->
    step_shape s (EvSubmit c st) (set_chan s (queue s ++ [c]) (blocked s), [])
| ssh_blocked c st : Nat.eqb (handles s) 0 = false -> ph s <> PDone -> step_shape s (EvSubmit c st) (set_chan s (queue s) (blocked s ++ [c]), [])
| ssh_quiet e s' : is_submit e = false -> quiet s s' -> step_shape s e (s', [])
| ssh_take c q : listens (ph s) = true -> queue s = c :: q -> step_shape s EvRecv (take (popped s q) c)
| ssh_summary e r : is_submit e = false -> summary s r (inflight (ph s)) -> step_shape s e r
| ssh_written e s0 r tx u : is_submit e = false -> ph s = PWriting r tx u -> quiet s s0 -> now s0 = now s -> step_shape s e (written s0 r tx).

Lemma step_has_shape s e : step_shape s e (step cfg s e).
Proof.
  destruct (step_steps cfg s e) as [e s' Hs Hq|c st Hh|c st Hh Hc|c st Hh Hn Hb|c st Hh Hn|c q Hl Hq|Hq Hc Hp|Hq Hc Hl Hd|s1 d Hp Er|Hp
                                   |e Hs Hn|e s0 r res Hf|e err se Hp He Hse|r tx u Hp|r tx u n Hp Hw|u Hp _].
  - (* st_quiet *) apply ssh_quiet; assumption.
  - (* st_nohandle *) apply ssh_nohandle, Hh.
  - (* st_dropped *) apply ssh_dropped, Hh.
  - (* st_queued *) apply ssh_queued; assumption.
  - (* st_blocked *) apply ssh_blocked; assumption.
  - (* st_take *) apply ssh_take; assumption.
  - (* st_closed_idle *) apply ssh_summary; [reflexivity|]. rewrite Hp. apply end_session_summary. rewrite Hp. reflexivity.
  - (* st_closed_down *) apply ssh_summary; [reflexivity|].
    replace (inflight (ph s)) with (@nil nat) by (destruct (ph s); try discriminate; reflexivity). apply (terminate_summary s []). split; reflexivity.
  - (* st_connected *) apply ssh_summary; [reflexivity|]. rewrite Hp. apply retry_call_frame in Er. destruct Er as (_ & Hqq & Hb & Htx & Hh & _).
    apply summary_alive; try reflexivity; [discriminate|repeat split; assumption|repeat split].
  - (* st_refused *) apply ssh_summary; [reflexivity|]. rewrite Hp. apply (wait_for_summary s _ _ []); [rewrite Hp; reflexivity|split; reflexivity].
  - (* st_crash *) apply ssh_summary; [exact Hs|apply crash_summary].
  - (* st_finish *) destruct (finishes_frame cfg _ _ _ _ _ Hf) as (Hs & Hc & _ & _ & Hi). apply ssh_summary; [exact Hs|]. rewrite Hi.
    apply (summary_pre_state s0 s _ _ Hc), finish_summary.
  - (* st_read_error_idle *) apply ssh_summary; [destruct He as [(-> & _)|([-> | ->] & _)]; reflexivity|]. rewrite Hp.
    apply end_session_summary. rewrite Hp. reflexivity.
  - (* st_written *) apply (ssh_written s EvTimer s r tx u eq_refl Hp); repeat split.
  - (* st_released *) apply (ssh_written s EvWriteRelease _ r tx u eq_refl Hp); repeat split.
  - (* st_wait_over *) apply ssh_summary; [reflexivity|]. rewrite Hp. apply loop_top_summary.
Qed.

End Helpers.

(* OListen, OEnd and ODial are the outputs the life-cycle properties (C13) read; every other output
   is mute.  Up to mute outputs before and after, a transition from `s` is one of the twelve
   results of `noted`; a predicate on results that ignores mute outputs holds after every step once
   it holds for those. *)
Definition muteb (o : list output) : bool :=
  forallb (fun x => match x with OListen _ | OEnd _ | ODial => false | _ => true end) o.
Definition mute (o : list output) : Prop := muteb o = true.

Lemma mute_app a b : mute a -> mute b -> mute (a ++ b).
Proof. unfold mute, muteb. intros Ha Hb. rewrite forallb_app, Ha, Hb. reflexivity. Qed.
Lemma mute_drop q : mute (drop_queue q).
Proof. apply forallb_forall. intros x H. apply in_drop_queue in H. destruct H as [i ->]. reflexivity. Qed.
Lemma mute_crash s : mute (snd (crash s)).
Proof.
  apply mute_app; [|apply mute_drop]. apply forallb_forall. intros x H. apply in_map_iff in H. destruct H as (r & <- & _). reflexivity.
Qed.
Lemma mute_listens o : mute o -> listens_of o = [].
Proof.
  induction o as [|x o IH]; [reflexivity|]. intros H. apply andb_prop in H. destruct H as [Hx Ho].
  rewrite listens_cons, (IH Ho). destruct x; try reflexivity; discriminate Hx.
Qed.
Lemma mute_dial o : mute o -> ~ In ODial o.
Proof. intros H Hd. apply (proj1 (forallb_forall _ _) H) in Hd. discriminate Hd. Qed.

Definition pads (r r0 : state * list output) : Prop :=
  fst r = fst r0 /\ exists pre post, mute pre /\ mute post /\ snd r = pre ++ snd r0 ++ post.

Lemma pads_listens r r0 : pads r r0 -> listens_of (snd r) = listens_of (snd r0).
Proof. intros (_ & pre & post & H1 & H2 & ->). rewrite !listens_app, (mute_listens _ H1), (mute_listens _ H2). apply app_nil_r. Qed.

Lemma pads_dial r r0 : pads r r0 -> In ODial (snd r) -> In ODial (snd r0).
Proof.
  intros (_ & pre & post & H1 & H2 & ->) H. apply in_app_or in H. destruct H as [H|H]; [destruct (mute_dial _ H1 H)|].
  apply in_app_or in H. destruct H as [H|H]; [exact H|destruct (mute_dial _ H2 H)].
Qed.

Inductive noted (s : state) : state * list output -> Prop :=
| n_unnoticed s' : ph s' = ph s -> enabled s' = enabled s -> noted s (s', [])
| n_setting s' : ph s' = ph s -> listens (ph s) = true ->
    enabled s' = true /\ ph s <> PWaitEnabled \/ enabled s' = false /\ ph s = PWaitEnabled -> noted s (s', [])
| n_connected_on s' : connected (ph s) = true -> connected (ph s') = true -> enabled s' = enabled s -> noted s (s', [])
| n_crashed s' : ph s <> PDone -> ph s' = PDone -> noted s (s', [])
| n_shutdown s' pre : ph s' = PDone ->
    connected (ph s) = true /\ pre = [OEnd SeShutdown] \/ listens (ph s) = true /\ connected (ph s) = false /\ pre = [] ->
    noted s (s', pre ++ [OListen LShutdown])
| n_lost s' se d u : connected (ph s) = true -> ph s' = PWaiting u -> enabled s' = enabled s -> noted s (s', [OEnd se; OListen (LWaitDisc d)])
| n_lost_crashed s' se : connected (ph s) = true -> ph s' = PDone -> noted s (s', [OEnd se])
| n_disabled_on s' : connected (ph s) = true -> ph s' = PWaitEnabled -> enabled s' = false -> noted s (s', [OEnd SeDisabled; OListen LDisabled])
| n_connected s' : ph s = PConnecting -> ph s' = PIdle -> enabled s' = enabled s -> noted s (s', [OListen LConnected])
| n_refused s' d u : ph s = PConnecting -> ph s' = PWaiting u -> enabled s' = enabled s -> noted s (s', [OListen (LWaitFailed d)])
| n_dial s' : ph s = PWaitEnabled \/ (exists u, ph s = PWaiting u) -> ph s' = PConnecting -> enabled s' = true ->
    noted s (s', [OListen LConnecting; ODial])
| n_disabled_off s' : ph s = PConnecting \/ (exists u, ph s = PWaiting u) -> ph s' = PWaitEnabled -> enabled s' = false ->
    noted s (s', [OListen LDisabled]).

Definition seen (s : state) (r : state * list output) : Prop := exists r0, pads r r0 /\ noted s r0.

Lemma seen_noted s r0 : noted s r0 -> seen s r0.
Proof. intros H. exists r0. split; [|exact H]. split; [reflexivity|]. exists [], []. repeat split. symmetry. apply app_nil_r. Qed.

Lemma seen_emit s pre r : mute pre -> seen s r -> seen s (emit pre r).
Proof.
  intros Hp (r0 & (Hf & pre' & post & H1 & H2 & Ho) & Hn). exists r0. split; [|exact Hn]. split; [exact Hf|].
  exists (pre ++ pre'), post. split; [apply mute_app; assumption|]. split; [exact H2|]. cbn [emit snd]. rewrite Ho. apply app_assoc.
Qed.

Lemma seen_post s s' o post : mute post -> seen s (s', o) -> seen s (s', o ++ post).
Proof.
  intros Hp (r0 & (Hf & pre & post' & H1 & H2 & Ho) & Hn). exists r0. split; [|exact Hn]. split; [exact Hf|].
  exists pre, (post' ++ post). split; [exact H1|]. split; [apply mute_app; assumption|]. cbn [snd] in *. rewrite Ho, <- !app_assoc. reflexivity.
Qed.

Lemma seen_mute s s' o : mute o -> seen s (s', []) -> seen s (s', o).
Proof. exact (seen_post s s' [] o). Qed.

Section Seen.
Variable cfg : config.

Lemma wait_for_cases s l o pre (R : state * list output -> Prop) :
  (forall s1 d, retry_call s o = Some (s1, d) -> R (set_ph s1 (PWaiting (now s1 + d)), pre ++ [OListen (l d)])) ->
  R (emit pre (crash s)) -> R (wait_for s l o pre).
Proof.
  intros H1 H2. unfold wait_for. destruct (retry_call s o) as [[s1 d]|]; [apply H1; reflexivity|rewrite let_emit; exact H2].
Qed.

Lemma crash_seen s s0 : ph s <> PDone -> seen s (crash s0).
Proof. intros Hn. apply seen_mute; [apply mute_crash|apply seen_noted, n_crashed; [exact Hn|reflexivity]]. Qed.

Lemma terminate_seen s s0 : listens (ph s) = true -> connected (ph s) = false -> seen s (terminate s0 []).
Proof.
  intros Hl Hc. apply (seen_post s _ [OListen LShutdown] _ (mute_drop _)), seen_noted, (n_shutdown s _ []); [reflexivity|right; auto].
Qed.

Lemma end_session_seen s s0 se : connected (ph s) = true ->
  (se = SeDisabled -> enabled s0 = false) -> (se <> SeDisabled -> enabled s0 = enabled s) -> seen s (end_session s0 se).
Proof.
  intros Hc Hd He.
  assert (Hw : se <> SeDisabled -> seen s (wait_for s0 LWaitDisc Disc [OEnd se])).
  { intros Hn. apply wait_for_cases.
    - intros s1 d Er. apply seen_noted, (n_lost s _ se d (now s1 + d)); [exact Hc|reflexivity|]. cbn. rewrite (retry_call_enabled _ _ _ _ Er). exact (He Hn).
    - apply (seen_post s _ [OEnd se] _ (mute_crash s0)), seen_noted, n_lost_crashed; [exact Hc|reflexivity]. }
  unfold end_session. destruct se; try (apply Hw; discriminate).
  - unfold loop_top. rewrite (Hd eq_refl). apply seen_noted, n_disabled_on; [exact Hc|reflexivity|exact (Hd eq_refl)].
  - apply (seen_post s _ [OEnd SeShutdown; OListen LShutdown] _ (mute_drop _)), seen_noted, (n_shutdown s _ [OEnd SeShutdown]); [reflexivity|left; auto].
Qed.

Lemma finish_seen s s0 r res : connected (ph s) = true -> enabled s0 = enabled s -> seen s (finish s0 r res).
Proof.
  intros Hc He. destruct (finish_finished s0 r res) as [t _|s1 e se _ _ He1 _ Hse].
  - (* fi_alive *) apply seen_mute; [reflexivity|apply seen_noted, n_connected_on; [exact Hc|reflexivity|exact He]].
  - (* fi_ended *) apply seen_emit; [reflexivity|]. apply end_session_seen; [exact Hc| |intros _; rewrite He1; exact He].
    intros ->. destruct Hse as [H|[_ H]]; [destruct e; discriminate H|discriminate H].
Qed.

Lemma transmit_seen s s0 r : connected (ph s) = true -> enabled s0 = enabled s -> seen s (transmit s0 r).
Proof.
  intros Hc He. destruct (transmit_transmits s0 r) as [_|_ _| |u].
  - (* tm_unformattable *) apply seen_emit; [reflexivity|apply finish_seen; assumption].
  - (* tm_write_failed *) apply seen_emit; [reflexivity|apply finish_seen; assumption].
  - (* tm_written *) apply seen_mute; [reflexivity|apply seen_noted, n_connected_on; [exact Hc|reflexivity|exact He]].
  - (* tm_writing *) apply seen_mute; [reflexivity|apply seen_noted, n_connected_on; [exact Hc|reflexivity|exact He]].
Qed.

Lemma take_seen s s0 c : ph s0 = ph s -> enabled s0 = enabled s -> listens (ph s) = true -> seen s (take s0 c).
Proof.
  intros Hp He Hl. assert (Hl0 : listens (ph s0) = true) by (rewrite Hp; exact Hl).
  destruct (take_takes s0 c Hl0) as [r Hc|r Hi|Hi|Hc|c s1 _ _ Hp1 H|c s1 _ _ _ He1 Hw|c s1 _ _ _ He1 Hi|c s1 _ _ _ He1 Hc Hn]; rewrite ?Hp in *.
  - (* tk_fail_fast *) apply seen_mute; [reflexivity|apply seen_noted, n_unnoticed; assumption].
  - (* tk_transmit *) apply transmit_seen; [rewrite Hi; reflexivity|exact He].
  - (* tk_shutdown_idle *) apply end_session_seen; [rewrite Hi; reflexivity|discriminate|intros _; exact He].
  - (* tk_shutdown_down *) apply terminate_seen; assumption.
  - (* tk_set *) apply seen_noted, n_setting; [exact Hp1|exact Hl|exact H].
  - (* tk_enabled *) apply seen_noted, n_dial; [left; exact Hw|reflexivity|exact He1].
  - (* tk_disabled_idle *) apply end_session_seen; [rewrite Hi; reflexivity|intros _; exact He1|intros H; destruct (H eq_refl)].
  - (* tk_disabled_down *) unfold loop_top. rewrite He1. apply seen_noted, n_disabled_off; [|reflexivity|exact He1].
    destruct (ph s); try discriminate; try congruence; [left; reflexivity|right; eexists; reflexivity].
Qed.

Theorem step_seen s e : seen s (step cfg s e).
Proof.
  destruct (step_steps cfg s e) as [e s' Hs Hq|c st Hh|c st Hh Hc|c st Hh Hn Hb|c st Hh Hn|c q Hl Hq|Hq Hc Hp|Hq Hc Hl Hd|s1 d Hp Er|Hp
                                   |e Hs Hn|e s0 r res Hf|e err se Hp He Hse|r tx u Hp|r tx u n Hp Hw|u Hp _].
  - (* st_quiet *) apply seen_noted, n_unnoticed; [exact (quiet_ph _ _ Hq)|exact (quiet_enabled _ _ Hq)].
  - (* st_nohandle *) apply seen_noted, n_unnoticed; reflexivity.
  - (* st_dropped *) apply seen_mute; [apply mute_drop|apply seen_noted, n_unnoticed; reflexivity].
  - (* st_queued *) apply seen_noted, n_unnoticed; reflexivity.
  - (* st_blocked *) apply seen_noted, n_unnoticed; reflexivity.
  - (* st_take *) apply take_seen; [reflexivity|reflexivity|exact Hl].
  - (* st_closed_idle *) apply end_session_seen; [rewrite Hp; reflexivity|discriminate|reflexivity].
  - (* st_closed_down *) apply terminate_seen; assumption.
  - (* st_connected *) apply seen_noted, n_connected; [exact Hp|reflexivity|exact (retry_call_enabled _ _ _ _ Er)].
  - (* st_refused *) apply wait_for_cases.
    + intros s1 d Er. apply seen_noted, (n_refused s _ d (now s1 + d)); [exact Hp|reflexivity|exact (retry_call_enabled _ _ _ _ Er)].
    + apply seen_emit; [reflexivity|]. apply crash_seen. rewrite Hp. discriminate.
  - (* st_crash *) apply crash_seen, Hn.
  - (* st_finish *) destruct (finishes_frame cfg _ _ _ _ _ Hf) as (_ & _ & _ & He & Hi).
    apply finish_seen; [destruct (ph s); try discriminate Hi; reflexivity|exact He].
  - (* st_read_error_idle *) apply end_session_seen; [rewrite Hp; reflexivity| |reflexivity].
    intros ->. destruct He as [(_ & _ & ->)|(_ & ->)]; discriminate Hse.
  - (* st_written *) apply seen_mute; [reflexivity|apply seen_noted, n_connected_on; [rewrite Hp; reflexivity|reflexivity|reflexivity]].
  - (* st_released *) apply seen_mute; [reflexivity|apply seen_noted, n_connected_on; [rewrite Hp; reflexivity|reflexivity|reflexivity]].
  - (* st_wait_over *) unfold loop_top. destruct (enabled s) eqn:He; apply seen_noted.
    + apply n_dial; [right; eexists; exact Hp|reflexivity|exact He].
    + apply n_disabled_off; [right; eexists; exact Hp|reflexivity|exact He].
Qed.

End Seen.
