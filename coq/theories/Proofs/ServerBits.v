(* Bit packing and the reply / iterator loops of the server model against their Spec forms:
   the BitWriter accumulator loop = pack, the RegisterWriter loop = flat_map be, the BitIterator /
   RegisterIterator drained by a handler = indexed start (bits_of / regs_of). Includes: replies
   never overflow the writer when there is room for them, start + i never overflows inside a
   validated range. *)
From Coq Require Import NArith List Lia Bool ZArith.
From Rodbus Require Import Base.Outcome Base.Cursor Model.Server Spec.Modbus Proofs.CursorProofs.
From Rodbus Require Spec.Framing Proofs.BufferProofs Proofs.PackProofs.
Import ListNotations.
Local Open Scope N_scope.

Lemma lor_pow_add acc i : N.testbit acc i = false -> N.lor acc (N.shiftl 1 i) = acc + 2 ^ i.
Proof. exact (PackProofs.lor_pow_add acc i). Qed.

Lemma byte_of_snoc pre b : byte_of (pre ++ [b]) = byte_of pre + N.b2n b * 2 ^ N.of_nat (length pre).
Proof.
  induction pre as [|x pre IH]; cbn [byte_of app length].
  - change (N.of_nat 0) with 0. rewrite N.pow_0_r. lia.
  - rewrite IH, Nat2N.inj_succ, N.pow_succ_r'. set (p := 2 ^ N.of_nat (length pre)). destruct b, x; cbn [N.b2n]; lia.
Qed.

Lemma byte_of_lt pre : byte_of pre < 2 ^ N.of_nat (length pre).
Proof.
  induction pre as [|x pre IH]; cbn [byte_of length].
  - change (N.of_nat 0) with 0. rewrite N.pow_0_r. lia.
  - rewrite Nat2N.inj_succ, N.pow_succ_r'. set (p := 2 ^ N.of_nat (length pre)) in *. destruct x; cbn [N.b2n]; lia.
Qed.

(* the accumulator update of the BitWriter loop *)
Lemma acc_update (pre : list bool) (b : bool) :
  (if b then N.lor (byte_of pre) (N.shiftl 1 (N.of_nat (length pre))) else byte_of pre) = byte_of (pre ++ [b]).
Proof.
  rewrite byte_of_snoc. destruct b; cbn [N.b2n]; [|lia].
  rewrite lor_pow_add; [lia|]. apply (PackProofs.testbit_lt_pow _ (N.of_nat (length pre))); [apply byte_of_lt|lia].
Qed.

Lemma pack_fuel_indep : forall f1 f2 bits, (length bits <= f1)%nat -> (length bits <= f2)%nat -> pack_fuel f1 bits = pack_fuel f2 bits.
Proof.
  induction f1 as [|f1 IH]; intros f2 bits H1 H2.
  - destruct bits; [destruct f2; reflexivity|cbn [length] in H1; lia].
  - destruct bits as [|b r]; [destruct f2; reflexivity|].
    destruct f2 as [|f2]; [cbn [length] in H2; lia|]. cbn [pack_fuel]. f_equal.
    apply IH; rewrite skipn_length; cbn [length] in *; lia.
Qed.

Lemma pack_fuel_S f b r : pack_fuel (S f) (b :: r) = byte_of (firstn 8 (b :: r)) :: pack_fuel f (skipn 8 (b :: r)).
Proof. reflexivity. Qed.

Lemma pack_nil : pack [] = [].
Proof. reflexivity. Qed.

Lemma pack_short pre : (0 < length pre <= 8)%nat -> pack pre = [byte_of pre].
Proof.
  intros H. unfold pack. destruct pre as [|b r]; [cbn [length] in H; lia|]. cbn [length pack_fuel].
  rewrite firstn_all2 by (cbn [length] in *; lia). rewrite skipn_all2 by (cbn [length] in *; lia).
  destruct (length r); reflexivity.
Qed.

Lemma pack_chunk c rest : length c = 8%nat -> pack (c ++ rest) = byte_of c :: pack rest.
Proof.
  intros Hc. unfold pack. rewrite app_length, Hc.
  destruct c as [|b c']; [discriminate|]. change (8 + length rest)%nat with (S (7 + length rest)).
  change ((b :: c') ++ rest) with (b :: (c' ++ rest)). rewrite pack_fuel_S.
  change (b :: c' ++ rest) with ((b :: c') ++ rest).
  rewrite firstn_app, skipn_app, Hc, Nat.sub_diag.
  rewrite (firstn_all2 (n := 8) (b :: c')) by lia. rewrite (skipn_all2 (n := 8) (b :: c')) by lia.
  rewrite firstn_O, skipn_O, app_nil_r. cbn [app]. f_equal.
  apply pack_fuel_indep; lia.
Qed.

(* calc_bytes_for_bits rounds up, and fits the byte-count byte for every quantity a read can ask for *)
Lemma calc_bytes_for_bits_ok n : n <= 2040 -> calc_bytes_for_bits n = Ok ((n + 7) / 8).
Proof.
  intros Hn. unfold calc_bytes_for_bits.
  replace (if n mod 8 =? 0 then n / 8 else n / 8 + 1) with ((n + 7) / 8) by (destruct (N.eqb_spec (n mod 8) 0); lia).
  destruct (N.ltb_spec 255 ((n + 7) / 8)); [lia|reflexivity].
Qed.

(* pack is ClientCodecSpec.pack (the same definition, convertible): its length and its bits are PackProofs' *)
Lemma pack_length bits : length (pack bits) = ((length bits + 7) / 8)%nat.
Proof. exact (PackProofs.pack_aux_len (length bits) bits (le_n _)). Qed.

Lemma addr_next_in cur n : cur + N.of_nat (S n) <= 65536 -> addr_next cur + N.of_nat n <= 65536.
Proof. unfold addr_next. intros H. rewrite Nat2N.inj_succ in H. lia. Qed.

Lemma read_seq_next {A} (get : N -> A + N) mk cur n : cur + N.of_nat (S n) <= 65536 ->
  read_seq get mk (addr_next cur) n = read_seq get mk (cur + 1) n.
Proof.
  intros H. destruct n as [|n]; [reflexivity|]. unfold addr_next. rewrite N.mod_small; [reflexivity|].
  rewrite !Nat2N.inj_succ in H. lia.
Qed.

Lemma read_seq_length {A} (get : N -> A + N) mk : forall n cur vs l, read_seq get mk cur n = (inl vs, l) -> length vs = n.
Proof.
  induction n as [|n IH]; intros cur vs l; cbn [read_seq].
  - intros E; inversion E; reflexivity.
  - destruct (get cur); [|discriminate]. destruct (read_seq get mk (cur + 1) n) as [[vs'|ex] l'] eqn:E; [|discriminate].
    intros E2; inversion E2; subst. cbn [length]. f_equal. eapply IH; eauto.
Qed.

Lemma bit_loop_spec get mk : forall n pre cur w log,
  (length pre < 8)%nat -> cur + N.of_nat n <= 65536 ->
  (length pre + n <= 8 * (w_cap w - length (w_out w)))%nat ->
  bit_loop get mk n cur (byte_of pre) (N.of_nat (length pre)) w log =
    match read_seq get mk cur n with
    | (inl vs, l) => (Ok (wapp w (pack (pre ++ vs))), log ++ l)
    | (inr ex, l) => (Err (EExc ex), log ++ l)
    end.
Proof.
  induction n as [|n IH]; intros pre cur w log Hpre Hcur Hroom; cbn [bit_loop read_seq].
  - rewrite !app_nil_r. destruct pre as [|b r].
    + cbn [length]. change (N.of_nat 0) with 0. cbn. rewrite wapp_nil. reflexivity.
    + destruct (N.ltb_spec 0 (N.of_nat (length (b :: r)))) as [_|H]; [|cbn [length] in H; lia].
      rewrite wr_u8_ok by (cbn [length] in *; lia). cbn [wr of_option]. rewrite pack_short by (cbn [length] in *; lia). reflexivity.
  - destruct (get cur) as [b|ex]; [|reflexivity].
    destruct (N.leb_spec 8 (N.of_nat (length pre))) as [H|_]; [lia|].
    rewrite acc_update.
    destruct (N.eqb_spec (N.of_nat (length pre) + 1) 8) as [H8|H8].
    + assert (L8 : length (pre ++ [b]) = 8%nat) by (rewrite app_length; cbn [length]; lia).
      rewrite wr_u8_ok by lia.
      change 0 with (byte_of []) at 1. change 0 with (N.of_nat (length (@nil bool))).
      rewrite IH; [| cbn [length]; lia | apply addr_next_in; assumption | unfold wapp; cbn [w_out w_cap length]; rewrite app_length; cbn [length]; lia ].
      rewrite read_seq_next by assumption.
      destruct (read_seq get mk (cur + 1) n) as [[vs|ex] l]; rewrite <- !app_assoc; cbn [app]; [|reflexivity].
      rewrite wapp_app. replace (pre ++ b :: vs) with ((pre ++ [b]) ++ vs) by (rewrite <- app_assoc; reflexivity).
      rewrite pack_chunk by assumption. reflexivity.
    + replace (N.of_nat (length pre) + 1) with (N.of_nat (length (pre ++ [b]))) by (rewrite app_length; cbn [length]; lia).
      rewrite IH; [| rewrite app_length; cbn [length]; lia | apply addr_next_in; assumption | rewrite app_length; cbn [length]; lia ].
      rewrite read_seq_next by assumption.
      destruct (read_seq get mk (cur + 1) n) as [[vs|ex] l]; rewrite <- !app_assoc; cbn [app]; reflexivity.
Qed.

Lemma reg_loop_spec get mk : forall n cur w log,
  cur + N.of_nat n <= 65536 -> (length (w_out w) + 2 * n <= w_cap w)%nat ->
  reg_loop get mk n cur w log =
    match read_seq get mk cur n with
    | (inl vs, l) => (Ok (wapp w (flat_map be vs)), log ++ l)
    | (inr ex, l) => (Err (EExc ex), log ++ l)
    end.
Proof.
  induction n as [|n IH]; intros cur w log Hcur Hroom; cbn [reg_loop read_seq].
  - cbn [flat_map]. rewrite wapp_nil, app_nil_r. reflexivity.
  - destruct (get cur) as [v|ex]; [|reflexivity].
    rewrite wr_u16_be_ok by lia.
    rewrite IH; [| apply addr_next_in; assumption | unfold wapp; cbn [w_out w_cap]; rewrite app_length; cbn [length Cursor.be16]; lia ].
    rewrite read_seq_next by assumption.
    destruct (read_seq get mk (cur + 1) n) as [[vs|ex] l]; rewrite <- !app_assoc; cbn [app]; [|reflexivity].
    rewrite wapp_app. reflexivity.
Qed.

Lemma indexed_length {A} (vs : list A) : forall s, length (indexed s vs) = length vs.
Proof. induction vs; intros; cbn [indexed length]; auto. Qed.

Definition bit_at (bytes : list N) (k : nat) : bool := N.testbit (nth (k / 8) bytes 0) (N.of_nat (k mod 8)).

Lemma of_nat_div8 k : N.to_nat (N.of_nat k / 8) = (k / 8)%nat.
Proof. rewrite N2Nat.inj_div, Nat2N.id. reflexivity. Qed.
Lemma of_nat_mod8 k : N.of_nat k mod 8 = N.of_nat (k mod 8).
Proof. symmetry. apply (Nat2N.inj_mod k 8). Qed.

(* m items are left at position k *)
Lemma bit_collect s n bytes : s + n <= 65536 -> length bytes = N.to_nat ((n + 7) / 8) ->
  forall m k fuel, (k + m = N.to_nat n)%nat -> (m < fuel)%nat ->
  iter_collect (bit_iter_next bytes (s, n)) fuel (N.of_nat k) =
    Ok (indexed (s + N.of_nat k) (map (bit_at bytes) (seq k m))).
Proof.
  intros Hs Hlen. assert (Hb : (N.to_nat n <= 8 * length bytes)%nat) by lia. clear Hlen.
  induction m as [|m IH]; intros k fuel Hk Hf; (destruct fuel as [|fuel]; [lia|]);
    cbn [iter_collect]; unfold bit_iter_next at 1; cbn [fst snd].
  - replace (N.of_nat k) with n by lia. rewrite N.eqb_refl. reflexivity.
  - destruct (N.eqb_spec (N.of_nat k) n) as [E|_]; [lia|].
    rewrite of_nat_div8, (nth_error_nth' bytes 0) by (apply Nat.div_lt_upper_bound; lia).
    destruct (N.ltb_spec 65535 (s + N.of_nat k)) as [Hbad|_]; [lia|].
    rewrite N.add_1_r, <- Nat2N.inj_succ, IH by lia. cbn [seq map indexed].
    rewrite PackProofs.land_bit_test, of_nat_mod8, Nat2N.inj_succ, <- N.add_1_r, N.add_assoc. reflexivity.
Qed.

Lemma bit_items_spec s n bytes : s + n <= 65536 -> length bytes = N.to_nat ((n + 7) / 8) ->
  bit_items (s, n) bytes = Ok (indexed s (bits_of n bytes)).
Proof.
  intros Hs Hlen. unfold bit_items. cbn [snd].
  rewrite (bit_collect s n bytes Hs Hlen (N.to_nat n) 0) by lia. rewrite N.add_0_r. reflexivity.
Qed.

Lemma in_skipn {A} (x : A) : forall n l, In x (skipn n l) -> In x l.
Proof.
  induction n as [|n IH]; intros l H; [exact H|]. destruct l as [|y l]; [exact H|]. right. apply IH. exact H.
Qed.

Lemma reg_collect s n bytes : s + n <= 65536 -> Framing.bytes bytes ->
  forall m k fuel, length (skipn (2 * k) bytes) = (2 * m)%nat -> (k + m = N.to_nat n)%nat -> (m < fuel)%nat ->
  iter_collect (reg_iter_next bytes (s, n)) fuel (N.of_nat k) =
    Ok (indexed (s + N.of_nat k) (regs_of (skipn (2 * k) bytes))).
Proof.
  intros Hs Hb. induction m as [|m IH]; intros k fuel Hl Hk Hf; (destruct fuel as [|fuel]; [lia|]);
    cbn [iter_collect]; unfold reg_iter_next at 1; cbn [fst snd].
  - replace (N.of_nat k) with n by lia. rewrite N.eqb_refl. apply length_zero_iff_nil in Hl. rewrite Hl. reflexivity.
  - destruct (N.eqb_spec (N.of_nat k) n) as [E|_]; [lia|]. rewrite Nat2N.id.
    assert (Hin : forall x, In x (skipn (2 * k) bytes) -> x < 256)
      by (intros x Hx; apply (proj1 (Forall_forall _ _) Hb), (in_skipn x (2 * k)), Hx).
    assert (Hnext : skipn (2 * S k) bytes = skipn 2 (skipn (2 * k) bytes))
      by (rewrite BufferProofs.skipn_skipn'; f_equal; lia).
    destruct (skipn (2 * k) bytes) as [|h [|l rest]]; cbn [length] in Hl; try lia.
    destruct (N.ltb_spec 65535 (N.of_nat k + s)) as [Hbad|_]; [lia|].
    rewrite PackProofs.lor_shift8 by (apply Hin; right; left; reflexivity).
    rewrite N.add_1_r, <- Nat2N.inj_succ, IH, Hnext by (rewrite ?Hnext; cbn [skipn length]; lia).
    cbn [skipn regs_of indexed]. unfold word.
    rewrite (N.add_comm (N.of_nat k)), Nat2N.inj_succ, <- N.add_1_r, N.add_assoc. reflexivity.
Qed.

Lemma reg_items_spec s n bytes : s + n <= 65536 -> length bytes = (2 * N.to_nat n)%nat -> Framing.bytes bytes ->
  reg_items (s, n) bytes = Ok (indexed s (regs_of bytes)).
Proof.
  intros Hs Hlen Hb. unfold reg_items. cbn [snd].
  rewrite (reg_collect s n bytes Hs Hb (N.to_nat n) 0) by (try exact Hlen; lia). rewrite N.add_0_r. reflexivity.
Qed.

Lemma regs_of_length : forall bytes k, length bytes = (2 * k)%nat -> length (regs_of bytes) = k.
Proof.
  intros bytes k. revert bytes. induction k as [|k IH]; intros bytes H.
  - destruct bytes; [reflexivity|cbn [length] in H; lia].
  - destruct bytes as [|h [|l r]]; cbn [length] in H; try lia. cbn [regs_of length]. f_equal. apply IH. lia.
Qed.
Lemma bits_of_length n bytes : length (bits_of n bytes) = N.to_nat n.
Proof. unfold bits_of. rewrite map_length, seq_length. reflexivity. Qed.
