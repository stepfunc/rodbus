(* The tasks' use of the retry strategy (Model/RetryTask.v): tstep is the generated arm tables interpreted, tstep_ref the
   same step with the strategy calls the Spec expects written out (tstep_eq: they agree); tstep_cases classifies what one
   step puts out and tstep_in reads it by output; tstep_delays / task_delays: the delays armed are the Spec's, call by
   call, from RetryProofs.step_refines. *)
From Coq Require Import NArith List.
From Rodbus Require Import Model.Retry Spec.RetrySpec Proofs.RetryProofs Gen.RetryArms Model.RetryTask.
Import ListNotations.
Local Open Scope N_scope.

(* The generated arm tables say what the Spec expects.
   tstep is defined from Gen/RetryArms.v. Written out with the strategy calls the Spec's calls_of expects (a failed
   attempt = Fail, a success = Reset, EVERY kind of lost session = Disc, a disabled channel = no call) it is tstep_ref;
   the two agree for the tables generated from the unchanged source. A source in which some arm calls another
   strategy method regenerates the table and this lemma, with everything below, stops compiling. *)
Definition tstep_ref (v : variant) (t : task) (e : tevent) : option (task * list tout) :=
  match phase t, e with
  | Idle, AttemptFails =>
      match step (strat t) Fail with
      | Some (s', Some d) => Some ({| strat := s'; phase := Waiting d |}, OAttempt :: announce v AfterFailedConnect d ++ [OArm d])
      | _ => None
      end
  | Idle, AttemptOk =>
      match step (strat t) Reset with
      | Some (s', _) => Some ({| strat := s'; phase := Up |}, OAttempt :: on_success v)
      | None => None
      end
  | Up, Lost _ =>
      match step (strat t) Disc with
      | Some (s', Some d) => Some ({| strat := s'; phase := Waiting d |}, announce v AfterDisconnect d ++ [OArm d])
      | _ => None
      end
  | Up, Interrupt => Some ({| strat := strat t; phase := Idle |}, [ODisabled])
  | Waiting d, Elapsed => Some ({| strat := strat t; phase := Idle |}, [OElapsed d])
  | Waiting d, Interrupt => Some ({| strat := strat t; phase := Idle |}, [ODisabled])
  | _, _ => Some (t, [])
  end.

Lemma lost_arm_is_after_disconnect v k : session_arm v (end_of k) = ArmWait CallAfterDisconnect.
Proof. destruct v, k; reflexivity. Qed.
Lemma disabled_arm_does_not_wait v : session_arm v EndDisabled = ArmNoWait.
Proof. destruct v; reflexivity. Qed.
Lemma shutdown_arm_ends_the_task v : session_arm v EndShutdown = ArmShutdown.
Proof. destruct v; reflexivity. Qed.
Lemma failed_attempt_is_after_failed_connect v : failed_call v = CallAfterFailedConnect.
Proof. destruct v; reflexivity. Qed.
Lemma success_resets v : resets_on_success v = true.
Proof. destruct v; reflexivity. Qed.

Lemma tstep_eq v t e : tstep v t e = tstep_ref v t e.
Proof.
  unfold tstep, tstep_ref, session_ends, wait_with.
  destruct (phase t); destruct e; try reflexivity;
    rewrite ?lost_arm_is_after_disconnect, ?disabled_arm_does_not_wait, ?failed_attempt_is_after_failed_connect, ?success_resets; reflexivity.
Qed.

(* a step puts out a wait (announced, then armed), a success, or at most a lone ODisabled / OElapsed *)
Lemma tstep_cases v t e t' o : tstep v t e = Some (t', o) ->
  (exists pre k d, o = pre ++ announce v k d ++ [OArm d] /\ phase t' = Waiting d /\ e <> AttemptOk /\
     (pre = [OAttempt] /\ phase t = Idle \/ pre = [] /\ phase t = Up)) \/
  (o = OAttempt :: on_success v /\ phase t = Idle /\ e = AttemptOk /\ phase t' = Up /\ cur (strat t') = dmin (strat t')) \/
  (~ (phase t = Idle /\ e = AttemptOk) /\ (o = [] \/ o = [ODisabled] \/ exists d, o = [OElapsed d])).
Proof.
  rewrite tstep_eq; unfold tstep_ref. intros H.
  destruct (phase t) as [|w|]; destruct e; try (injection H as <- <-; right; right; split; [now intros [? ?]|now eauto]).
  - destruct (step (strat t) Fail) as [[s' [d|]]|]; try discriminate H. injection H as <- <-.
    left. exists [OAttempt], AfterFailedConnect, d. repeat split; auto; discriminate.
  - cbn [step] in H. injection H as <- <-. right. left. now repeat split.
  - cbn [step] in H. injection H as <- <-. left. exists [], AfterDisconnect, (dmin (strat t)). repeat split; auto; discriminate.
Qed.

(* what having x among the outputs of a step says about the step *)
Lemma tstep_in v t e t' o x : tstep v t e = Some (t', o) -> In x o ->
  match x with
  | OAttempt => phase t = Idle
  | OUp | OReset => phase t = Idle /\ e = AttemptOk /\ o = OAttempt :: on_success v /\ cur (strat t') = dmin (strat t') /\ phase t' = Up
  | OAnnounce k d => (exists pre, o = pre ++ [OAnnounce k d; OArm d]) /\ phase t' = Waiting d
  | OArm d => v <> RtuServer -> exists k pre, o = pre ++ [OAnnounce k d; OArm d]
  | OElapsed _ | ODisabled => True
  end.
Proof.
  intros H Hin. destruct (tstep_cases _ _ _ _ _ H) as [(pre & k0 & d0 & -> & Hp & _ & Hpre)|[(-> & Hi & -> & Hu & Hc)|(_ & [->|[->|(d0 & ->)]])]].
  - (* a wait: x is in pre, is the announcement, or is the armed timer *)
    apply in_app_or in Hin. destruct Hin as [Hin|Hin]; [|apply in_app_or in Hin; destruct Hin as [Hin|[<-|[]]]].
    + destruct Hpre as [(-> & Hi)|(-> & _)]; [|destruct Hin]. destruct Hin as [<-|[]]. exact Hi.
    + destruct v; cbn in Hin; [| |destruct Hin]; destruct Hin as [<-|[]]; (split; [now exists pre|exact Hp]).
    + intros Hv. exists k0, pre. destruct v; [reflexivity|reflexivity|now destruct Hv].
  - (* a success *) destruct v; cbn in Hin; repeat (destruct Hin as [<-|Hin]); try contradiction; auto.
  - (* nothing, a lone ODisabled, a lone OElapsed *) destruct Hin.
  - now destruct Hin as [<-|[]].
  - now destruct Hin as [<-|[]].
Qed.

Lemma waiting_is_quiet v t e t' o d : phase t = Waiting d -> tstep v t e = Some (t', o) ->
  (t' = t /\ o = []) \/
  (e = Elapsed /\ o = [OElapsed d] /\ phase t' = Idle /\ strat t' = strat t) \/
  (e = Interrupt /\ o = [ODisabled] /\ phase t' = Idle /\ strat t' = strat t).
Proof.
  rewrite tstep_eq; unfold tstep_ref. intros -> H. destruct e; inversion H; subst; cbn; auto.
  - right. left. auto.
  - right. right. auto.
Qed.

Lemma attempt_only_when_idle v t e t' o : tstep v t e = Some (t', o) -> In OAttempt o -> phase t = Idle.
Proof. exact (tstep_in v t e t' o OAttempt). Qed.

Lemma reset_iff_success v t e t' o : tstep v t e = Some (t', o) ->
  (In OReset o <-> (phase t = Idle /\ e = AttemptOk)) /\
  (In OReset o -> o = OAttempt :: on_success v /\ cur (strat t') = dmin (strat t') /\ phase t' = Up).
Proof.
  intros H. split; [split|]; try (intros Hin; destruct (tstep_in _ _ _ _ _ OReset H Hin) as (Hp & He & Ho & Hc & Hu); now auto).
  intros [Hp ->]. rewrite tstep_eq in H. unfold tstep_ref in H. rewrite Hp in H. injection H as _ <-. destruct v; cbn; auto.
Qed.

Lemma up_iff_reset v t e t' o : v <> RtuServer -> tstep v t e = Some (t', o) ->
  (In OUp o <-> In OReset o).
Proof.
  intros Hv H. split; intros Hin; [destruct (tstep_in _ _ _ _ _ OUp H Hin) as (_ & _ & -> & _)|destruct (tstep_in _ _ _ _ _ OReset H Hin) as (_ & _ & -> & _)];
    (destruct v; [| |contradiction]); cbn; auto.
Qed.

Definition kind_of (p : tphase) : kind := match p with Idle => KIdle | Waiting _ => KWaiting | Up => KUp end.

Lemma armed_app a b : armed (a ++ b) = armed a ++ armed b.
Proof. unfold armed. apply flat_map_app. Qed.
Lemma somes_app a b : somes (a ++ b) = somes a ++ somes b.
Proof. unfold somes. apply flat_map_app. Qed.
Lemma announced_app a b : announced (a ++ b) = announced a ++ announced b.
Proof. unfold announced. apply flat_map_app. Qed.

Lemma tstep_delays v mn mx : mn <= mx -> 2 * mx <= dur_max -> forall t e k, tracks mn mx (strat t) k ->
  exists t' o k', tstep v t e = Some (t', o) /\ tracks mn mx (strat t') k' /\
    kind_of (phase t') = fst (knext (kind_of (phase t)) e) /\ (v <> RtuServer -> announced o = armed o) /\
    forall r, somes (spec mn mx k (snd (knext (kind_of (phase t)) e) ++ r)) = armed o ++ somes (spec mn mx k' r).
Proof.
  intros Hle Hov t e k Ht. pose proof (step_refines mn mx Hle Hov) as Hs. rewrite tstep_eq; unfold tstep_ref.
  assert (Hi : exists t' o k', Some ({| strat := strat t; phase := Idle |}, [ODisabled]) = Some (t', o) /\ tracks mn mx (strat t') k' /\
            kind_of (phase t') = KIdle /\ (v <> RtuServer -> announced o = armed o) /\
            forall r, somes (spec mn mx k r) = armed o ++ somes (spec mn mx k' r))
    by (exists {| strat := strat t; phase := Idle |}, [ODisabled], k; split; [reflexivity|]; split; [exact Ht|]; now repeat split).
  destruct (phase t) as [|w|] eqn:Ep; destruct e; cbn [kind_of knext fst snd app]; try exact Hi;
    try (exists t, [], k; rewrite Ep; split; [reflexivity|]; split; [exact Ht|]; now repeat split).
  - destruct (Hs Fail _ _ Ht) as (d' & x & -> & Hd & Hr). pose proof (Hr []) as Hx. injection Hx as <-.
    eexists _, _, _. split; [reflexivity|]. split; [exact Hd|]. split; [reflexivity|].
    split; [|intros r; rewrite Hr]; destruct v; try reflexivity; contradiction.
  - destruct (Hs Reset _ _ Ht) as (d' & x & -> & Hd & Hr). pose proof (Hr []) as Hx. injection Hx as <-.
    eexists _, _, _. split; [reflexivity|]. split; [exact Hd|]. split; [reflexivity|].
    split; [|intros r; rewrite Hr]; destruct v; reflexivity.
  - exists {| strat := strat t; phase := Idle |}, [OElapsed w], k. split; [reflexivity|]. split; [exact Ht|]. now repeat split.
  - destruct (Hs Disc _ _ Ht) as (d' & x & -> & Hd & Hr). pose proof (Hr []) as Hx. injection Hx as <-.
    eexists _, _, _. split; [reflexivity|]. split; [exact Hd|]. split; [reflexivity|].
    split; [|intros r; rewrite Hr]; destruct v; try reflexivity; contradiction.
Qed.

Lemma task_delays v mn mx : mn <= mx -> 2 * mx <= dur_max -> forall evs t k, tracks mn mx (strat t) k ->
  exists t' o, trun v t evs = Some (t', o) /\
    armed o = somes (spec mn mx k (calls_of (kind_of (phase t)) evs)) /\
    (v <> RtuServer -> announced o = armed o).
Proof.
  intros Hle Hov. induction evs as [|e r IH]; intros t k Ht; cbn [trun calls_of]; [exists t, []; repeat split|].
  destruct (tstep_delays v mn mx Hle Hov t e k Ht) as (t1 & o1 & k1 & -> & Ht1 & Hk & Ha & Hs).
  destruct (knext _ e) as [kd ops]. cbn [fst snd] in Hk, Hs. destruct (IH t1 k1 Ht1) as (t' & o2 & -> & E2 & A2). rewrite Hk in E2.
  exists t', (o1 ++ o2). split; [reflexivity|]. split; [now rewrite armed_app, Hs, E2|].
  intros Hv. now rewrite armed_app, announced_app, (Ha Hv), (A2 Hv).
Qed.

Lemma task_delays_from_init v mn mx : mn <= mx -> 2 * mx <= dur_max -> forall evs,
  exists t' o, trun v (tinit mn mx) evs = Some (t', o) /\
    armed o = somes (spec mn mx 0 (calls_of KIdle evs)) /\
    (v <> RtuServer -> announced o = armed o).
Proof. intros Hle Hov evs. apply (task_delays v mn mx Hle Hov evs (tinit mn mx) 0%nat). now apply create_tracks. Qed.

Lemma after_any_loss v mn mx k : mn <= mx -> 2 * mx <= dur_max ->
  exists t' o, trun v (tinit mn mx) [AttemptFails; Elapsed; AttemptFails; Elapsed; AttemptOk; Lost k; Elapsed; AttemptFails; Elapsed; AttemptFails; Elapsed; AttemptFails] = Some (t', o) /\
    armed o = [mn; N.min (2 * mn) mx; mn; mn; N.min (2 * mn) mx; N.min (4 * mn) mx].
Proof.
  intros Hle Hov. edestruct (task_delays_from_init v mn mx Hle Hov) as (t' & o & E & Ea & _).
  exists t', o. split; [exact E|]. rewrite Ea. cbn [calls_of knext app spec somes flat_map].
  unfold delay_spec. change (2 ^ N.of_nat 0) with 1. change (2 ^ N.of_nat 1) with 2. change (2 ^ N.of_nat 2) with 4.
  rewrite N.mul_1_r, (N.min_l mn mx Hle), (N.mul_comm mn 2), (N.mul_comm mn 4). reflexivity.
Qed.
