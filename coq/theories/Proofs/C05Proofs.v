(* C05 at the level of sessions over TCP: chunking independence and rejection (tcp_any_schedule, tcp_chunking, tcp_reject,
   ref_framed), no byte lost per parse / read, the never-full buffer, cancel-safety, the Spec over s1 ++ s2 at frame
   boundaries, a connection that goes on (tcp_represents), and which errors end the client's connection. The reader-level
   statements are ReaderGeneric's theorems for the MBAP parser (MbapProofs.mbap_parser). *)
From Coq Require Import NArith List Arith Lia.
From Rodbus Require Import Base.Outcome Base.Frame Gen.Consts Gen.ClientFatal Model.Buffer Model.Mbap Model.Reader Spec.Framing
  Proofs.BufferProofs Proofs.ReaderGeneric Proofs.SpecCut Proofs.MbapProofs.
Import ListNotations.

Theorem tcp_any_schedule : forall chunks fi,
  run_session KTcp false chunks fi = liftr (ref_frames (fst (sched_stream chunks fi)) (snd (sched_stream chunks fi))).
Proof.
  intros chunks fi. rewrite sched_stream_eq. cbn [fst snd]. unfold run_session, ref_frames.
  exact (mbap_parser _ session_ref chunks fi (S (length (sbytes chunks))) (all_true chunks) ltac:(lia)).
Qed.

Theorem tcp_chunking : forall s chunks fi,
  concat chunks = s -> Forall (fun c => c <> []) chunks ->
  run_session KTcp false chunks fi = liftr (ref_frames s fi).
Proof.
  intros s chunks fi Hs Hne. rewrite tcp_any_schedule, sched_stream_eq. cbn [fst snd].
  destruct (sbytes_nonempty chunks Hne) as [-> Hf]. now rewrite Hf, Hs.
Qed.

(* a stream that starts with complete, well-formed frames *)
Definition prepend (fs : list frame) (r : list frame * ending) : list frame * ending := (fs ++ fst r, snd r).

Lemma framed_len pre fs : framed pre fs -> length fs <= length pre.
Proof. induction 1; cbn [length app]; [lia|]. rewrite !app_length. lia. Qed.

Lemma mcut_frame t1 t0 l1 l0 u pdu s : N.to_nat (be l1 l0) = S (length pdu) -> length pdu <= 253 ->
  mcut ([t1; t0; 0; 0; l1; l0; u]%N ++ pdu ++ s) = CFrame {| f_tx := Some (be t1 t0); f_dest := u; f_bcast := false; f_pdu := pdu |} s.
Proof.
  intros Hl Hp. unfold mcut, be in *. cbn [app length firstn skipn hdr N.mul N.add N.eqb negb]. unfold mbap_max_length_field. rewrite Hl.
  destruct (Nat.ltb_spec (S (S (S (S (S (S (S (length (pdu ++ s))))))))) 7); [lia|].
  destruct (Nat.ltb_spec 254 (S (length pdu))); [lia|]. cbv iota.
  destruct (Nat.ltb_spec (length (pdu ++ s)) (length pdu)) as [Hlt|_]; [rewrite app_length in Hlt; lia|].
  now rewrite skipn_app_le, skipn_all, firstn_app_le, firstn_all by lia.
Qed.

Lemma ref_framed pre fs : framed pre fs -> forall F t fi, length (pre ++ t) < F ->
  ref F (pre ++ t) fi = prepend fs (ref (F - length fs) t fi).
Proof.
  induction 1 as [|t1 t0 l1 l0 u pdu s fs Hl Hp Hfr IH]; intros F t fi HF.
  - cbn [app length prepend fst snd]. rewrite Nat.sub_0_r. now destruct (ref F t fi).
  - destruct F as [|F]; [lia|]. rewrite <- !app_assoc, ref_S, (mcut_frame _ _ _ _ _ _ _ Hl Hp). cbn [cframes].
    cbn [app length] in HF. rewrite !app_length in HF. rewrite IH by (rewrite app_length; lia). reflexivity.
Qed.

(* the Spec is not degenerate: a stream made of complete well-formed frames yields exactly those frames *)
Theorem ref_frames_framed pre fs fi : framed pre fs -> ref_frames pre fi = (fs, end_of fi).
Proof.
  intros Hfr. unfold ref_frames. pose proof (framed_len _ _ Hfr) as Hl.
  assert (Hlen : length (pre ++ []) < S (length pre)) by (rewrite app_nil_r; lia).
  pose proof (ref_framed pre fs Hfr (S (length pre)) [] fi Hlen) as H. rewrite app_nil_r in H. rewrite H.
  destruct (S (length pre) - length fs) as [|k] eqn:E; [lia|]. unfold prepend. cbn. now rewrite app_nil_r.
Qed.

Lemma bad_header_err h : bad_header h -> exists e, hdr h = inr e /\ e <> InternalError.
Proof.
  intros (t1 & t0 & p1 & p0 & l1 & l0 & u & -> & Hbad). unfold hdr, be in *.
  destruct (N.eqb_spec (p1 * 256 + p0) 0) as [Ep|Ep]; cbn [negb]; [|eexists; split; [reflexivity|discriminate]].
  unfold mbap_max_length_field. destruct (Nat.ltb_spec 254 (N.to_nat (l1 * 256 + l0))) as [|Hle]; [eexists; split; [reflexivity|discriminate]|].
  destruct (N.to_nat (l1 * 256 + l0)) eqn:E; [eexists; split; [reflexivity|discriminate]|].
  exfalso. destruct Hbad as [H|[H|H]]; [congruence|lia|lia].
Qed.

Theorem tcp_reject : forall pre fs h rest chunks fi,
  framed pre fs -> bad_header h -> concat chunks = pre ++ h ++ rest -> Forall (fun c => c <> []) chunks ->
  exists e, e <> InternalError /\ run_session KTcp false chunks fi = (map IFrame fs, EndBad e).
Proof.
  intros pre fs h rest chunks fi Hfr Hbad Hs Hne.
  destruct (bad_header_err h Hbad) as (e & He & Hne'). exists e. split; [assumption|].
  rewrite (tcp_chunking _ chunks fi Hs Hne). unfold ref_frames.
  rewrite (ref_framed pre fs Hfr) by lia.
  assert (H7 : length h = 7) by (destruct Hbad as (? & ? & ? & ? & ? & ? & ? & -> & _); reflexivity).
  pose proof (framed_len _ _ Hfr) as Hfl.
  rewrite (ref_bad _ (h ++ rest) fi e).
  - unfold liftr, prepend; cbn [fst snd]. now rewrite app_nil_r.
  - rewrite !app_length. lia.
  - rewrite app_length. lia.
  - rewrite firstn_app_le by lia. rewrite firstn_all2 by lia. exact He.
Qed.

(* every error exit of the MBAP parser leaves it in Begin: parse_header fails BEFORE `self.state = Header(..)`,
   and the Header arm has no error exit (cursor.read(adu_length) cannot fail after the length check). So
   next_frame's `parser.reset()` on error is a no-op for MBAP: there is no stale-state analogue of the RTU case *)
Theorem mbap_error_leaves_begin : forall st b st' b' e, wf b -> st_ok st -> mbap_parse st b = (st', b', Err e) -> st' = Begin.
Proof.
  intros st b st' b' e Hwf Hst Ep. rewrite (mbap_parse_eq _ _ Hwf Hst) in Ep.
  destruct (sparse st b) as [[s0 b0] r0] eqn:Es. destruct r0; inversion Ep; subst. now destruct (sparse_bad _ _ _ _ _ Es) as (_ & -> & _).
Qed.

Theorem tcp_parse_consumes_prefix : forall st b st' b' r, wf b -> st_ok st -> mbap_parse st b = (st', b', r) ->
  exists k, k <= buf_len b /\ b' = consume k b /\ b_pend b = firstn k (b_pend b) ++ b_pend b' /\ wf b' /\ st_ok st'.
Proof.
  intros st b st' b' r Hwf Hst Ep.
  assert (H : exists k, b' = consume k b /\ k <= buf_len b /\ st_ok st').
  { destruct r as [[f|]|e|].
    - destruct (mbap_some _ _ _ _ _ Hwf Hst Ep) as (-> & (k & -> & Hk & _) & _). exists k. repeat split; auto.
    - destruct (mbap_none _ _ _ _ Hwf Hst Ep) as (Hst' & _ & (k & -> & Hk & _) & _). exists k. repeat split; auto.
    - pose proof (mbap_error_leaves_begin _ _ _ _ _ Hwf Hst Ep) as ->.
      destruct (mbap_err' _ _ _ _ _ Hwf Hst Ep) as ((k & -> & Hk & _) & _). exists k. repeat split; auto.
    - exfalso. exact (mbap_panic _ _ _ _ Hwf Hst Ep). }
  destruct H as (k & -> & Hk & Hst'). exists k. split; [assumption|]. split; [reflexivity|].
  split; [cbn [consume b_pend]; now rewrite firstn_skipn|]. split; [now apply consume_wf|assumption].
Qed.

Theorem read_appends : forall b c, wf b -> buf_len b < cap -> c <> [] ->
  exists k b'', read_some b c = (b'', RsOk k (skipn k c)) /\ 1 <= k <= length c /\
                b_pend b'' ++ skipn k c = b_pend b ++ c /\ wf b''.
Proof.
  intros b c Hwf Hl Hc. destruct (read_some_ok b c Hwf Hl Hc) as (k & b'' & H1 & H2 & H3 & H4).
  exists k, b''. repeat split; try assumption; try lia. now rewrite H3, <- app_assoc, firstn_skipn.
Qed.

Theorem tcp_never_full : forall st b st' b', wf b -> st_ok st -> mbap_parse st b = (st', b', Ok None) ->
  buf_len b' < cap /\
  forall c, c <> [] -> exists k b'', read_some b' c = (b'', RsOk k (skipn k c)) /\ 1 <= k <= length c.
Proof.
  intros st b st' b' Hwf Hst Ep. destruct (mbap_parser _ never_full st b st' b' Hwf I Hst Ep) as (H1 & _ & _ & H2). now split.
Qed.

Definition is_tcp (r : reader) : Prop := match r_parser r with PTcp _ => True | _ => False end.

Lemma run_reader_st_tcp : forall fuel r n fi, is_tcp r -> is_tcp (fst (run_reader_st fuel r n fi)).
Proof.
  intros fuel r n fi. unfold is_tcp. pose proof (run_reader_st_framing fuel r n fi) as H.
  destruct (r_parser (fst _)), (r_parser r); (discriminate || auto).
Qed.

Theorem tcp_cancel_safe : forall st b n1 n2 fi r1 n1',
  wf b -> st_ok st ->
  next_frame (nf_fuel n1) (rd pstate PTcp st b) n1 FinPending = (r1, n1', NfEnd EndPending) ->
  next_frame (nf_fuel n2) r1 n2 fi = next_frame (nf_fuel (n1 ++ n2)) (rd pstate PTcp st b) (n1 ++ n2) fi /\
  n1' = [] /\ exists st1 b1, r1 = rd pstate PTcp st1 b1 /\ wf b1 /\ st_ok st1.
Proof.
  intros st b n1 n2 fi r1 n1' Hwf Hst E.
  destruct (mbap_parser _ nf_cancel_safe_fuel mbap_args_stable st b n1 n2 fi r1 n1' Hwf I (all_true n1) (all_true n2) Hst E)
    as (Heq & Hn & st1 & b1 & -> & Hwf1 & _ & Hst1).
  split; [exact Heq|]. split; [exact Hn|]. now exists st1, b1.
Qed.

Theorem tcp_cancel_safe_session : forall chunks fi,
  run_cancel (reader_new KTcp) chunks fi = run_session KTcp false chunks fi.
Proof. intros chunks fi. exact (mbap_parser _ session_cancel_safe mbap_args_stable chunks fi (all_true chunks)). Qed.

Theorem ref_frames_app : forall s1 s2 fi,
  ref_frames (s1 ++ s2) fi =
  match ref_frames s1 FinPending with
  | (fs1, EndPending) => (fs1 ++ fst (ref_frames (mbap_tail s1 ++ s2) fi), snd (ref_frames (mbap_tail s1 ++ s2) fi))
  | x => x
  end.
Proof. exact (frames_app mcut mcut_suffix mcut_app ref ref_S ref_tail (fun _ => eq_refl) ref_tail_S). Qed.

Lemma ref_tail_framed pre fs : framed pre fs -> forall F, length pre < F -> ref_tail F pre = [].
Proof.
  induction 1 as [|t1 t0 l1 l0 u pdu s fs Hl Hp Hfr IH]; intros F HF; [destruct F; reflexivity|].
  destruct F as [|F]; [lia|]. rewrite ref_tail_S, (mcut_frame _ _ _ _ _ _ _ Hl Hp). apply IH.
  cbn [length app] in HF. rewrite !app_length in HF. lia.
Qed.
Lemma mbap_tail_framed pre fs : framed pre fs -> mbap_tail pre = [].
Proof. intros Hfr. unfold mbap_tail. apply (ref_tail_framed pre fs Hfr). lia. Qed.

Theorem ref_frames_framed_app : forall pre fs s2 fi, framed pre fs ->
  ref_frames (pre ++ s2) fi = (fs ++ fst (ref_frames s2 fi), snd (ref_frames s2 fi)).
Proof.
  intros pre fs s2 fi Hfr. rewrite ref_frames_app, (ref_frames_framed pre fs FinPending Hfr). cbn [end_of].
  now rewrite (mbap_tail_framed pre fs Hfr).
Qed.

Definition tcp_represents (r : reader) (t : list N) : Prop := mbap_represents r t.

Theorem tcp_represents_fresh : tcp_represents (reader_new KTcp) [].
Proof. exact (mbap_parser _ represents_fresh). Qed.

Theorem tcp_run_represents : forall r t n fi, tcp_represents r t ->
  run_reader (run_fuel r n) false r n fi = liftr (ref_frames (t ++ sbytes n) (sfin n fi)) /\
  snd (run_reader_st (run_fuel r n) r n fi) = liftr (ref_frames (t ++ sbytes n) (sfin n fi)).
Proof. intros r t n fi Hrep. exact (mbap_parser _ run_represents_fuel ref_fuel r t n fi Hrep (all_true n)). Qed.

Theorem tcp_represents_step : forall r t n r1 l1, tcp_represents r t ->
  run_reader_st (run_fuel r n) r n FinPending = (r1, (l1, EndPending)) ->
  tcp_represents r1 (mbap_tail (t ++ sbytes n)) /\
  l1 = map IFrame (fst (ref_frames (t ++ sbytes n) FinPending)) /\
  snd (ref_frames (t ++ sbytes n) FinPending) = EndPending.
Proof.
  intros r t n r1 l1 Hrep E.
  exact (mbap_parser _ represents_step mbap_args_stable mbap_tail ref_fuel mbap_ref_app r t n (run_fuel r n) r1 l1 Hrep (all_true n)
           (run_fuel_enough r n) E).
Qed.

(* The client ends the connection at a malformed header: Gen/ClientFatal.v is regenerated from
   client/task.rs SessionError::from_request_err *)

Definition kind_of_ferr (e : ferr) : option frame_error_kind :=
  match e with
  | UnknownProtocolId _ => Some FkUnknownProtocolId
  | FrameLengthTooBig _ _ => Some FkFrameLengthTooBig
  | MbapLengthZero => Some FkMbapLengthZero
  | UnknownFunctionCode _ => Some FkUnknownFunctionCode
  | CrcValidationFailure _ _ => Some FkCrcValidationFailure
  | InternalError => None
  end.
(* ClientLoop::run returns (the connection ends) as soon as poll / run_one_request yields an error that
   from_request_err maps to a session error *)
Definition client_connection_survives (e : ending) : bool :=
  match e with
  | EndBad fe => match kind_of_ferr fe with Some k => negb (frame_error_ends_session k) | None => true end
  | EndIo _ => negb io_error_ends_session
  | _ => true
  end.

Theorem client_framing_errors_fatal : (forall k, frame_error_ends_session k = true) /\ io_error_ends_session = true.
Proof. split; [intros k; destruct k; reflexivity|reflexivity]. Qed.

Lemma client_never_survives_a_framing_error e : e <> InternalError -> client_connection_survives (EndBad e) = false.
Proof.
  intros Hne. unfold client_connection_survives. destruct (kind_of_ferr e) as [k|] eqn:E.
  - now rewrite (proj1 client_framing_errors_fatal k).
  - destruct e; try discriminate. congruence.
Qed.
