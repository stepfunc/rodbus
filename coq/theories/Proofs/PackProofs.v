(* The encodings of Spec/ClientCodecSpec.v, without any model: the packing `pack` (Horner form)
   stated bitwise - coil k is bit (k mod 8) of byte (k / 8), every padding bit is 0, there are
   ceil(n/8) bytes -, the length of `flat_map be`, and the facts about bits of N that the codec
   proofs of both sides share (`testbit_lt_pow`, `land_bit_test`, `lor_disjoint_add` with `lor_pow_add`
   and `lor_shift8`). *)
(* ZifyNat: lia then knows `/` and `mod` on nat (k / 8, k mod 8 below). *)
From Coq Require Import NArith List Lia Arith ZifyNat Bool.
From Rodbus Require Import Spec.ClientCodecSpec.
Import ListNotations.
Local Open Scope N_scope.

Lemma testbit_lt_pow a n m : a < 2 ^ n -> n <= m -> N.testbit a m = false.
Proof.
  intros H Hm. destruct (N.eq_dec a 0) as [->|Hz]; [apply N.bits_0|].
  apply N.bits_above_log2. apply N.lt_le_trans with n; [|exact Hm]. apply N.log2_lt_pow2; lia.
Qed.

(* no common bit: `|` is `+` *)
Lemma lor_disjoint_add a b : N.land a b = 0 -> N.lor a b = a + b.
Proof. intros H. rewrite <- N.lxor_lor by exact H. symmetry. now apply N.add_nocarry_lxor. Qed.

Lemma lor_pow_add acc i : N.testbit acc i = false -> N.lor acc (N.shiftl 1 i) = acc + 2 ^ i.
Proof.
  intros H. rewrite N.shiftl_1_l. apply lor_disjoint_add, N.bits_inj. intros n.
  rewrite N.land_spec, N.pow2_bits_eqb, N.bits_0. destruct (N.eqb_spec i n) as [->|]; [now rewrite H|apply Bool.andb_false_r].
Qed.

(* BitIterator::next: `value & (1 << bit) != 0` is the bit *)
Lemma land_bit_test v i : negb (N.land v (N.shiftl 1 i) =? 0) = N.testbit v i.
Proof.
  rewrite N.shiftl_1_l.
  assert (H : N.land v (2 ^ i) = if N.testbit v i then 2 ^ i else 0).
  { apply N.bits_inj. intros j. rewrite N.land_spec, N.pow2_bits_eqb.
    destruct (N.eqb_spec i j) as [->|Hne].
    - destruct (N.testbit v j); [now rewrite N.pow2_bits_true|now rewrite N.bits_0].
    - rewrite andb_false_r. destruct (N.testbit v i); [now rewrite N.pow2_bits_false|now rewrite N.bits_0]. }
  rewrite H. destruct (N.testbit v i).
  - assert (2 ^ i <> 0) by (apply N.pow_nonzero; lia). destruct (N.eqb_spec (2 ^ i) 0); [contradiction|reflexivity].
  - reflexivity.
Qed.

Lemma lor_shift8 h l : l < 256 -> N.lor (N.shiftl h 8) l = h * 256 + l.
Proof.
  intros Hl. rewrite N.shiftl_mul_pow2. apply lor_disjoint_add, N.bits_inj. intros n. rewrite N.land_spec, N.bits_0.
  destruct (N.lt_ge_cases n 8) as [Hn|Hn]; [change 256 with (2 ^ 8); now rewrite N.mul_pow2_bits_low|].
  rewrite (testbit_lt_pow l 8 n Hl Hn). apply Bool.andb_false_r.
Qed.

Lemma len_flat_map_be vs : len (flat_map be vs) = 2 * len vs.
Proof. unfold len. induction vs as [|v r IH]; [reflexivity|]. cbn [flat_map]. rewrite app_length. cbn [be length]. lia. Qed.

Lemma byte_index_lt pos n : pos < n -> pos / 8 < bytes_for_bits n.
Proof. unfold bytes_for_bits. lia. Qed.
Lemma bytes_for_bits_le n m : n <= 8 * m -> bytes_for_bits n <= m.
Proof. unfold bytes_for_bits. lia. Qed.

Lemma byte_of_bits_testbit bits : forall i, N.testbit (byte_of_bits bits) (N.of_nat i) = nth i bits false.
Proof.
  induction bits as [|b r IH]; intros i; cbn [byte_of_bits].
  - rewrite N.bits_0. destruct i; reflexivity.
  - replace ((if b then 1 else 0) + 2 * byte_of_bits r) with (2 * byte_of_bits r + N.b2n b) by (destruct b; cbn [N.b2n]; lia).
    destruct i as [|i].
    + cbn [nth N.of_nat]. apply N.testbit_0_r.
    + rewrite Nat2N.inj_succ, N.testbit_succ_r. cbn [nth]. apply IH.
Qed.

Lemma nth_firstn_lt {A} n : forall (l : list A) k d, (k < n)%nat -> nth k (firstn n l) d = nth k l d.
Proof.
  induction n as [|n IH]; intros l k d H; [lia|]. destruct l as [|x l]; [reflexivity|].
  destruct k; cbn [firstn nth]; [reflexivity|apply IH; lia].
Qed.

Lemma nth_skipn_add {A} n : forall (l : list A) k d, nth k (skipn n l) d = nth (n + k) l d.
Proof.
  induction n as [|n IH]; intros l k d; [reflexivity|]. destruct l as [|x l]; cbn [skipn plus nth]; [destruct k; reflexivity|apply IH].
Qed.

Lemma pack_aux_step f bits : bits <> [] ->
  pack_aux (S f) bits = byte_of_bits (firstn 8 bits) :: pack_aux f (skipn 8 bits).
Proof. destruct bits; [congruence|reflexivity]. Qed.

Lemma pack_aux_bit : forall fuel bits k, (length bits <= fuel)%nat ->
  N.testbit (nth (k / 8) (pack_aux fuel bits) 0) (N.of_nat (k mod 8)) = nth k bits false.
Proof.
  induction fuel as [|f IH]; intros bits k H.
  - destruct bits; [|cbn in H; lia]. cbn [pack_aux]. destruct (k / 8)%nat, k; cbn [nth]; apply N.bits_0.
  - destruct (list_eq_dec Bool.bool_dec bits []) as [->|Hne].
    { cbn [pack_aux]. destruct (k / 8)%nat, k; cbn [nth]; apply N.bits_0. }
    assert (Hl : (1 <= length bits)%nat) by (destruct bits; [congruence|cbn; lia]).
    rewrite pack_aux_step by assumption.
    destruct (Nat.lt_ge_cases k 8) as [Hk|Hk].
    + replace (k / 8)%nat with 0%nat by lia. replace (k mod 8)%nat with k by lia. cbn [nth].
      rewrite byte_of_bits_testbit. now apply nth_firstn_lt.
    + replace (k / 8)%nat with (S ((k - 8) / 8)) by lia. replace (k mod 8)%nat with ((k - 8) mod 8)%nat by lia. cbn [nth].
      rewrite IH by (rewrite skipn_length; lia). rewrite nth_skipn_add. f_equal. lia.
Qed.

Theorem pack_bit bits k :
  N.testbit (nth (k / 8) (pack bits) 0) (N.of_nat (k mod 8)) = nth k bits false.
Proof. unfold pack. now apply pack_aux_bit. Qed.

Lemma pack_aux_len : forall fuel bits, (length bits <= fuel)%nat ->
  length (pack_aux fuel bits) = ((length bits + 7) / 8)%nat.
Proof.
  induction fuel as [|f IH]; intros bits H.
  - destruct bits; [reflexivity|cbn in H; lia].
  - destruct (list_eq_dec Bool.bool_dec bits []) as [->|Hne]; [reflexivity|].
    assert (Hl : (1 <= length bits)%nat) by (destruct bits; [congruence|cbn; lia]).
    rewrite pack_aux_step by assumption. cbn [length]. rewrite IH by (rewrite skipn_length; lia).
    rewrite skipn_length. lia.
Qed.

Theorem pack_length bits : len (pack bits) = bytes_for_bits (len bits).
Proof. unfold pack, len, bytes_for_bits. rewrite pack_aux_len by lia. lia. Qed.

Lemma byte_of_bits_lt bits : byte_of_bits bits < 2 ^ N.of_nat (length bits).
Proof.
  induction bits as [|b r IH]; cbn [byte_of_bits length]; [cbn; lia|].
  rewrite Nat2N.inj_succ, N.pow_succ_r'. destruct b; lia.
Qed.
