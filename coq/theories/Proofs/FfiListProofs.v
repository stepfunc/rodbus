(* One caller-owned rodbus_bit_list / rodbus_register_list object across several write-multiple calls
   (Model/FfiClient.list_calls over the regenerated `list_args`) against Spec/FfiSpec.list_calls_spec. *)
From Coq Require Import List String.
From Rodbus Require Import Gen.FfiTables Spec.FfiSpec Model.FfiClient.
Import ListNotations.
Local Open Scope N_scope.

Definition list_fns : list string := ["write_multiple_coils"; "write_multiple_registers"]%string.

Lemma list_unchanged : forall fn, In fn list_fns -> forall A (l : list A), list_read fn l = Some l /\ list_left fn l = Some l.
Proof.
  intros fn [<-|[<-|[]]] A l; split; reflexivity.
Qed.

Lemma list_reuse : forall fn, In fn list_fns -> forall A (steps : list (list_step A)) (l : list A),
  list_calls fn (Some l) steps = map (fun p => (fst p, Some (snd p))) (list_calls_spec l steps).
Proof.
  intros fn Hfn A steps. induction steps as [|[x|s] rest IH]; intro l; cbn [list_calls list_calls_spec map option_map].
  - reflexivity.
  - apply IH.
  - destruct (list_unchanged fn Hfn A l) as [-> ->]. cbn [fst snd]. f_equal. apply IH.
Qed.

(* the borrow is immutable, so nothing the function does can change the object *)
Lemma list_borrowed_immutably : forall fn, In fn list_fns -> fst (list_use fn) = "as_ref"%string.
Proof. intros fn [<-|[<-|[]]]; reflexivity. Qed.

Lemma list_args_complete : map (fun r => fst (fst r)) list_args = list_fns.
Proof. reflexivity. Qed.
