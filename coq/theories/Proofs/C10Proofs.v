(* Proofs for C10: the conservation law and its corollaries (exactly once), classification of
   completions, no request is stuck. *)
From Coq Require Import NArith List Bool Arith Lia Permutation.
From Rodbus Require Import Model.Retry Spec.Lifecycle Gen.SessionErrors Model.ClientTask Proofs.ClientBase.
Import ListNotations.
Local Open Scope N_scope.

Ltac perm := apply (Permutation_count_occ Nat.eq_dec); let x := fresh "x" in intro x; rewrite ?count_occ_app; lia.

Lemma queued_nil : queued [] = []. Proof. reflexivity. Qed.
Lemma completed_nil : completed [] = []. Proof. reflexivity. Qed.

Lemma queued_one c : queued [c] = match c with CReq r => [rq_id r] | _ => [] end.
Proof. rewrite queued_cons, queued_nil, app_nil_r. reflexivity. Qed.

(* request ids an event brings into the system: every Submit made through a live handle (or after
   the task is gone - then it completes at once) *)
Definition accepted (s : state) (e : event) : list nat :=
  match e with
  | EvSubmit c _ => if Nat.eqb (handles s) 0 then [] else queued [c]
  | _ => []
  end.

Definition done_empty (s : state) : Prop := ph s = PDone -> queue s = [] /\ blocked s = [].

Definition conserves (s s' : state) (o : list output) (new : list nat) : Prop :=
  Permutation (pending s' ++ completed o) (pending s ++ new) /\ done_empty s'.

Lemma accepted_other s e : is_submit e = false -> accepted s e = [].
Proof. destruct e; [discriminate|reflexivity..]. Qed.

(* the conservation law for a helper transition run from `s0` (the state `s` with other settings) after
   the outputs `pre` were made *)
Lemma summary_conserves s0 s s' o pre ids new : summary s0 (s', o) ids -> queue s0 = queue s -> blocked s0 = blocked s ->
  completed pre = [] -> ids = inflight (ph s) ++ new -> conserves s s' (pre ++ o) new.
Proof.
  intros (Hi & _ & _ & _ & _ & H) Hq Hb Hc ->. unfold conserves, pending, done_empty. cbn [fst snd] in *. rewrite completed_app, Hc, Hi, <- Hq, <- Hb.
  destruct H as [(Hn & -> & -> & ->)|(Hn & -> & -> & ->)]; (split; [|intros; tauto]); rewrite ?queued_nil; cbn [app]; perm.
Qed.

Lemma conserves_quiet s s' o new : ph s' = ph s -> queue s' = queue s -> blocked s' = blocked s -> done_empty s ->
  completed o = new -> conserves s s' o new.
Proof.
  intros Hp Hq Hb Hd <-. unfold conserves, pending, done_empty. rewrite Hp, Hq, Hb. split; [reflexivity|exact Hd].
Qed.

Section Conserve.
Variable cfg : config.

Lemma transmit_conserve s r : ph s = PIdle -> conserves s (fst (transmit s r)) (snd (transmit s r)) [rq_id r].
Proof.
  intros Hp.
  assert (Hfin : forall s0 res pre, queue s0 = queue s -> blocked s0 = blocked s -> completed pre = [] ->
            conserves s (fst (emit pre (finish s0 r res))) (snd (emit pre (finish s0 r res))) [rq_id r]).
  { intros s0 res pre Hq Hb Hc. pose proof (finish_summary s0 r res) as H. destruct (finish s0 r res) as [s' o].
    apply (summary_conserves s0 s s' o pre _ _ H Hq Hb Hc). rewrite Hp. reflexivity. }
  assert (Hgo : forall s', inflight (ph s') = [rq_id r] -> queue s' = queue s -> blocked s' = blocked s -> forall o, completed o = [] ->
            conserves s s' o [rq_id r]).
  { intros s' Hi Hq Hb o Hc. split; [|intros E; rewrite E in Hi; discriminate Hi].
    unfold pending. rewrite Hi, Hq, Hb, Hc, Hp. cbn [inflight inflight_req map]. perm. }
  destruct (transmit_transmits s r) as [_|_ _| |u].
  - (* tm_unformattable *) apply Hfin; reflexivity.
  - (* tm_write_failed *) apply Hfin; reflexivity.
  - (* tm_written *) apply Hgo; reflexivity.
  - (* tm_writing *) apply Hgo; reflexivity.
Qed.

Lemma take_conserve s c : listens (ph s) = true -> conserves s (fst (take s c)) (snd (take s c)) (queued [c]).
Proof.
  intros Hl. assert (Hi : inflight (ph s) = []) by (destruct (ph s); try discriminate; reflexivity).
  assert (Hd : done_empty s) by (intros E; rewrite E in Hl; discriminate).
  destruct (take_has_shape s c Hl) as [c s1 Hc Hsc Hp|r _|c [s' o] Hc H|r Hp].
  - (* tsh_set *) rewrite (queued_setting c Hc). apply conserves_quiet; auto; [apply (same_chan_queue _ _ Hsc)|apply (same_chan_blocked _ _ Hsc)].
  - (* tsh_fail_fast *) rewrite queued_one. apply conserves_quiet; auto.
  - (* tsh_summary *) apply (summary_conserves s s s' o [] _ _ H); try reflexivity. rewrite Hi. exact (eq_sym Hc).
  - (* tsh_transmit *) rewrite queued_one. apply transmit_conserve, Hp.
Qed.

(* the command just taken was the head of the queue *)
Lemma conserves_popped s c q s' o : queue s = c :: q -> conserves (popped s q) s' o (queued [c]) -> conserves s s' o [].
Proof.
  intros Hq [P D]. split; [|exact D]. etransitivity; [exact P|]. unfold pending.
  replace (inflight (ph (popped s q))) with (inflight (ph s)) by reflexivity.
  rewrite <- (popped_queued s c q Hq), app_nil_r. perm.
Qed.

Theorem step_conserve s e : done_empty s -> let '(s', o) := step cfg s e in conserves s s' o (accepted s e).
Proof.
  intros Hd. apply (let_pair (step cfg s e) (fun s' o => conserves s s' o (accepted s e))).
  destruct (step_has_shape cfg s e) as [c st Hh|c st Hh|c st Hh Hn Hb|c st Hh Hn|e s' He Hq|c q Hl Hq|e [s' o] He H|e s0 r tx u He Hp Hq Hn];
    cbn [accepted fst snd]; rewrite ?Hh, ?(accepted_other s e He).
  - (* ssh_nohandle *) apply conserves_quiet; auto.
  - (* ssh_dropped *) apply conserves_quiet; auto. apply completed_drop.
  - (* ssh_queued *) split; [|intros E; destruct (Hn E)]. unfold pending. cbn [ph queue blocked set_chan]. rewrite queued_app, completed_nil, app_nil_r. perm.
  - (* ssh_blocked *) split; [|intros E; destruct (Hn E)]. unfold pending. cbn [ph queue blocked set_chan]. rewrite queued_app, completed_nil, app_nil_r. perm.
  - (* ssh_quiet *) apply conserves_quiet; auto; [apply (quiet_ph _ _ Hq)|apply (quiet_queue _ _ Hq)|apply (quiet_blocked _ _ Hq)].
  - (* ssh_take *) apply (conserves_popped s c q _ _ Hq), take_conserve, Hl.
  - (* ssh_summary *) apply (summary_conserves s s s' o [] _ _ H); try reflexivity. symmetry. apply app_nil_r.
  - (* ssh_written *) split; [|intros E; discriminate E].
    unfold pending. cbn [ph queue blocked set_ph written fst snd]. rewrite (quiet_queue _ _ Hq), (quiet_blocked _ _ Hq), Hp. reflexivity.
Qed.

End Conserve.

Section Runs.
Variable cfg : config.

Fixpoint all_accepted (s : state) (es : list event) : list nat :=
  match es with [] => [] | e :: r => accepted s e ++ all_accepted (fst (step cfg s e)) r end.

Theorem run_conserve : forall es s, done_empty s ->
  let '(s', o) := run cfg s es in
  Permutation (pending s' ++ completed o) (pending s ++ all_accepted s es) /\ done_empty s'.
Proof.
  induction es as [|e es IH]; intros s Hd; cbn [run all_accepted].
  - rewrite completed_nil, !app_nil_r. split; [reflexivity|exact Hd].
  - pose proof (step_conserve cfg s e Hd) as H1. destruct (step cfg s e) as [s1 o1]. cbn [fst]. destruct H1 as [P1 D1].
    specialize (IH s1 D1). destruct (run cfg s1 es) as [s2 o2]. destruct IH as [P2 D2]. split; [|exact D2].
    rewrite completed_app. apply (Permutation_count_occ Nat.eq_dec). intro x.
    apply (Permutation_count_occ Nat.eq_dec) with (x := x) in P1. apply (Permutation_count_occ Nat.eq_dec) with (x := x) in P2.
    rewrite ?count_occ_app in *. lia.
Qed.

Lemma init_done_empty hn mt rmin rmax : done_empty (init hn mt rmin rmax).
Proof. intros E. discriminate E. Qed.

(* exactly once: with distinct request ids no request completes twice, none is lost, nothing
   completes that was not submitted, and once nothing is pending - in particular once the task is
   gone - submitted and completed coincide *)
Theorem exactly_once hn mt rmin rmax es :
  let s0 := init hn mt rmin rmax in
  NoDup (all_accepted s0 es) ->
  let s' := fst (run cfg s0 es) in let o := snd (run cfg s0 es) in
  NoDup (completed o) /\
  (forall id, In id (all_accepted s0 es) -> In id (completed o) \/ In id (pending s')) /\
  (forall id, In id (completed o) -> In id (all_accepted s0 es)) /\
  (forall id, In id (completed o) -> ~ In id (pending s')) /\
  (pending s' = [] -> forall id, In id (all_accepted s0 es) <-> In id (completed o)) /\
  (ph s' = PDone -> pending s' = []).
Proof.
  intros s0 Hnd. pose proof (run_conserve es s0 (init_done_empty hn mt rmin rmax)) as H. destruct (run cfg s0 es) as [s' o].
  cbn [fst snd]. destruct H as [H D]. change (pending s0) with (@nil nat) in H. cbn [app] in H.
  assert (Hnd' : NoDup (pending s' ++ completed o)) by (eapply Permutation_NoDup; [symmetry; exact H|exact Hnd]).
  destruct (NoDup_app_inv _ _ Hnd') as (_ & Hc & Hdis). split; [exact Hc|]. split; [|split; [|split; [|split]]].
  - intros id Hin. eapply Permutation_in in Hin; [|symmetry; exact H]. apply in_app_or in Hin. tauto.
  - intros id Hin. eapply Permutation_in; [exact H|]. apply in_or_app. right. exact Hin.
  - intros id Hin Hp. exact (Hdis id Hp Hin).
  - intros Hp id. rewrite Hp in H. cbn [app] in H. split; intros Hin.
    + eapply Permutation_in; [symmetry; exact H|exact Hin].
    + eapply Permutation_in; [exact H|exact Hin].
  - intros Hp. destruct (D Hp) as [Hq Hb]. unfold pending. rewrite Hp, Hq, Hb. reflexivity.
Qed.

(* a write in progress ends, however long the transport takes nothing: once the clock reaches the timer instant of
   the transmission bound (write start + request timeout) the timer step either finds the write done - the request
   is then in flight - or completes the request (write_timeout_error, i.e. Io) *)
Lemma writing_not_stuck s r tx u : ph s = PWriting r tx u ->
  let s1 := fst (step cfg s (EvTick (fire cfg (wdl s) - now s))) in
  (exists d, ph (fst (step cfg s1 EvTimer)) = PInFlight r tx d) \/ In (rq_id r) (completed (snd (step cfg s1 EvTimer))).
Proof.
  intros Eph. cbn [step fst]. cbn [ph set_now now wpark wdl]. rewrite Eph.
  destruct (Nat.eqb (wpark s) 0 && (fire cfg u <=? now s + (fire cfg (wdl s) - now s))); [left; eexists; reflexivity|].
  rewrite due_after_tick.
  right. apply finish_completes.
Qed.

Lemma slow_write_done s r tx u : ph s = PWriting r tx u -> wpark s = 0%nat ->
  let s1 := fst (step cfg s (EvTick (fire cfg u - now s))) in
  exists d, ph (fst (step cfg s1 EvTimer)) = PInFlight r tx d.
Proof.
  intros Eph Hw. cbn [step fst]. cbn [ph set_now now wpark wdl]. rewrite Eph, Hw, due_after_tick. eexists. reflexivity.
Qed.

Lemma queued_not_stuck s r q : listens (ph s) = true -> queue s = CReq r :: q ->
  let '(s', o) := step cfg s EvRecv in In (rq_id r) (completed o) \/ inflight (ph s') = [rq_id r].
Proof.
  intros Hl Hq. cbn [step]. rewrite Hl, Hq. fold (popped s q). unfold take. change (ph (popped s q)) with (ph s).
  destruct (ph s) eqn:Eph; try discriminate; try (left; left; reflexivity).
  apply (let_pair (transmit (popped s q) r) (fun s' o => In (rq_id r) (completed o) \/ inflight (ph s') = [rq_id r])).
  assert (Hfin : forall s0 res pre, In (rq_id r) (completed (snd (emit pre (finish s0 r res))))).
  { intros s0 res pre. cbn [emit snd]. rewrite completed_app. apply in_or_app. right. apply finish_completes. }
  destruct (transmit_transmits (popped s q) r) as [_|_ _| |u]; [left; apply Hfin|left; apply Hfin|right; reflexivity|right; reflexivity].
Qed.

End Runs.

Definition no_completion (o : list output) : Prop := forall id res, ~ In (OComplete id res) o.
Definition only_drops (r : state * list output) : Prop :=
  forall id res, In (OComplete id res) (snd r) -> res = RErr drop_error /\ ph (fst r) = PDone.

Lemma in_drop_complete id res q : In (OComplete id res) (drop_queue q) -> res = RErr drop_error.
Proof. intros H. apply in_drop_queue in H. destruct H as [i E]. inversion E. reflexivity. Qed.

Lemma in_drop_one id res c : In (OComplete id res) (drop_queue [c]) -> exists r, c = CReq r /\ rq_id r = id /\ res = RErr drop_error.
Proof.
  intros H. destruct c as [r| | |l|]; cbn in H; try (destruct H; fail).
  destruct H as [H|[]]. inversion H. exists r. auto.
Qed.

Lemma no_completion_end e : no_completion [OEnd e].
Proof. intros id res [H|[]]. discriminate. Qed.

Lemma only_drops_emit pre r : no_completion pre -> only_drops r -> only_drops (emit pre r).
Proof. intros Hp D id res H. apply in_app_or in H. destruct H as [H|H]; [destruct (Hp _ _ H)|exact (D _ _ H)]. Qed.

Section Class.
Variable cfg : config.

Lemma terminate_drops s pre : no_completion pre -> only_drops (terminate s pre).
Proof.
  intros Hp id res H. apply in_app_or in H. destruct H as [H|[H|H]]; [destruct (Hp _ _ H)|discriminate|].
  apply in_drop_complete in H. split; [exact H|reflexivity].
Qed.

Lemma crash_drops s : only_drops (crash s).
Proof.
  intros id res H. apply in_app_or in H. destruct H as [H|H].
  - apply in_map_iff in H. destruct H as (r & E & _). inversion E. split; reflexivity.
  - apply in_drop_complete in H. split; [exact H|reflexivity].
Qed.

Lemma loop_top_drops s : only_drops (loop_top s).
Proof. unfold loop_top, start_connecting. destruct (enabled s); intros id res H; cbn in H; repeat (destruct H as [H|H]; try discriminate); destruct H. Qed.

Lemma wait_for_drops s l o pre : no_completion pre -> only_drops (wait_for s l o pre).
Proof.
  intros Hp. unfold wait_for. destruct (retry_call s o) as [[s1 d]|].
  - intros id res H. apply in_app_or in H. destruct H as [H|[H|[]]]; [destruct (Hp _ _ H)|discriminate].
  - rewrite let_emit. apply only_drops_emit; [exact Hp|apply crash_drops].
Qed.

Lemma end_session_drops s e : only_drops (end_session s e) /\ In (OEnd e) (snd (end_session s e)).
Proof.
  assert (Hw : only_drops (wait_for s LWaitDisc Disc [OEnd e]) /\ In (OEnd e) (snd (wait_for s LWaitDisc Disc [OEnd e]))).
  { split; [apply wait_for_drops, no_completion_end|]. unfold wait_for. destruct (retry_call s Disc) as [[s1 d]|]; [|destruct (crash s)]; left; reflexivity. }
  unfold end_session. destruct e; try exact Hw.
  - rewrite (let_emit [OEnd SeDisabled]). split; [apply only_drops_emit; [apply no_completion_end|apply loop_top_drops]|left; reflexivity].
  - split; [apply terminate_drops, no_completion_end|left; reflexivity].
Qed.

Lemma finish_completions s r res : let '(s', o) := finish s r res in
  (forall id res', In (OComplete id res') o -> (id = rq_id r /\ res' = res) \/ (res' = RErr drop_error /\ ph s' = PDone)) /\
  (forall e se, res = RErr e -> from_request_err e = Some se -> In (OEnd se) o).
Proof.
  destruct (finish_finished s r res) as [t Hn|s0 e se _ _ _ -> Hse].
  - (* fi_alive *) split; [intros id res' [E|[]]; inversion E; auto|]. intros e se E1 E2. rewrite (Hn e E1) in E2. discriminate.
  - (* fi_ended *) destruct (end_session_drops s0 se) as [D I]. destruct (end_session s0 se) as [s' o]. cbn [emit fst snd app] in *. split.
    + intros id res' [E|E]; [inversion E; auto|right; exact (D _ _ E)].
    + intros e' se' E1 E2. inversion E1; subst e'. destruct Hse as [H|[H _]]; rewrite H in E2; [inversion E2; subst; right; exact I|discriminate].
Qed.

(* the reading of a completion (id, res) produced by the step s --e--> s' with outputs o *)
Definition explains (s : state) (e : event) (s' : state) (o : list output) (id : nat) (res : result) : Prop :=
  match res with
  | ROk | RErr ReException | RErr ReBadResponse =>
      (* a reply: the frame with the outstanding transaction id, for the outstanding request *)
      exists r tx d k, ph s = PInFlight r tx d /\ rq_id r = id /\ res = respond k /\
        ((e = EvFrame tx k /\ partial s = None) \/ (e = EvTail /\ partial s = Some (tx, k)))
  | RErr ReNoConnection =>
      (* taken from the queue while the channel was not connected *)
      e = EvRecv /\ connected (ph s) = false /\ listens (ph s) = true /\ exists r q, queue s = CReq r :: q /\ rq_id r = id
  | RErr ReResponseTimeout =>
      (* the deadline branch of the outstanding request *)
      e = EvTimer /\ exists r tx d, ph s = PInFlight r tx d /\ rq_id r = id /\ fire cfg d <= now s
  | RErr ReIo =>
      (* the I/O error that ended the connection: a read error / EOF while outstanding, the failed write, or the
         write that could not be finished in time *)
      In (OEnd SeIoError) o /\
      ((exists r tx d, ph s = PInFlight r tx d /\ rq_id r = id /\ (e = EvEof \/ e = EvIoErr)) \/
       (e = EvRecv /\ ph s = PIdle /\ wfail s = true /\ exists r q, queue s = CReq r :: q /\ rq_id r = id) \/
       (* the transmission that was not done when its bound (write start + request timeout) passed *)
       (e = EvTimer /\ exists r tx u, ph s = PWriting r tx u /\ rq_id r = id /\ fire cfg (wdl s) <= now s))
  | RErr ReBadFrame =>
      (* the framing error that ended the connection *)
      In (OEnd SeBadFrame) o /\ exists r tx d, ph s = PInFlight r tx d /\ rq_id r = id /\ e = EvGarbage
  | RErr ReShutdown =>
      (* only when the task is gone (terminated, aborted, or gone already), or when the submitting
         call itself was rejected (try_send on a full queue) *)
      ph s' = PDone \/ (exists r, e = EvSubmit (CReq r) SFfi /\ rq_id r = id /\ s' = s)
  | RErr ReBadRequest =>
      (* rejected by the encoder when it was taken from the queue while connected *)
      e = EvRecv /\ ph s = PIdle /\ exists r q, queue s = CReq r :: q /\ rq_id r = id /\ rq_kind r = KUnformattable
  | RErr ReInternal => False
  end.

Section Completion.
Variables (s : state) (id : nat) (res : result).

(* `left` is the ReShutdown clause of `explains`: drop_error is ReShutdown (Gen/SessionErrors.v) *)
Lemma drops_explain e r : only_drops r -> In (OComplete id res) (snd r) -> explains s e (fst r) (snd r) id res.
Proof. intros D H. destruct (D _ _ H) as [-> P]. left. exact P. Qed.

(* a completion made by `finish`: the request's own result, read by `Hown`, or a drop *)
Lemma finish_class e s0 r res0 pre : no_completion pre ->
  (forall s' o, (forall e' se, res0 = RErr e' -> from_request_err e' = Some se -> In (OEnd se) o) -> explains s e s' o (rq_id r) res0) ->
  let r0 := emit pre (finish s0 r res0) in In (OComplete id res) (snd r0) -> explains s e (fst r0) (snd r0) id res.
Proof.
  intros Hp Hown. pose proof (finish_completions s0 r res0) as F. destruct (finish s0 r res0) as [s' o]. destruct F as [F1 F2].
  cbn [emit fst snd]. intros H. apply in_app_or in H. destruct H as [H|H]; [destruct (Hp _ _ H)|].
  destruct (F1 _ _ H) as [[-> ->]|[-> P]]; [|left; exact P].
  apply Hown. intros e' se E1 E2. apply in_or_app. right. exact (F2 e' se E1 E2).
Qed.

(* why the exchange ended is what the result says *)
Lemma finishes_explains e s0 r res0 s' o : finishes cfg s e s0 r res0 ->
  (forall e' se, res0 = RErr e' -> from_request_err e' = Some se -> In (OEnd se) o) -> explains s e s' o (rq_id r) res0.
Proof.
  intros Hf Hend. destruct Hf as [r tx d k Hp Hpa|r tx d k Hp Hpa|r tx d e err Hp He|r tx d Hp Hle|r tx u Hp Hle].
  - (* fin_frame *) destruct k; cbn [respond explains]; exists r, tx, d; [exists RpGenuine|exists RpException|exists RpBad]; auto 8.
  - (* fin_tail *) destruct k; cbn [respond explains]; exists r, tx, d; [exists RpGenuine|exists RpException|exists RpBad]; auto 8.
  - (* fin_read *) destruct He as [(-> & _ & ->)|(He & ->)]; cbn [explains].
    + split; [apply (Hend ReBadFrame SeBadFrame); reflexivity|]. exists r, tx, d. auto.
    + split; [apply (Hend ReIo SeIoError); reflexivity|]. left. exists r, tx, d. auto.
  - (* fin_deadline *) cbn. split; [reflexivity|]. exists r, tx, d. auto.
  - (* fin_wtimeout *) cbn. split; [apply (Hend ReIo SeIoError); reflexivity|]. right. right. split; [reflexivity|]. exists r, tx, u. auto.
Qed.

Lemma take_class c q : listens (ph s) = true -> queue s = c :: q ->
  In (OComplete id res) (snd (take (popped s q) c)) -> explains s EvRecv (fst (take (popped s q) c)) (snd (take (popped s q) c)) id res.
Proof.
  intros Hl Hq.
  destruct (take_takes (popped s q) c Hl) as [r Hc|r Hi|_|_|c s2 _ _ _ _|c s2 _ _ _ _ _|c s2 _ _ _ _ _|c s2 _ _ _ _ _ _].
  - (* tk_fail_fast *) intros [H|[]]. inversion H; subst. cbn. repeat split; auto. exists r, q. auto.
  - (* tk_transmit *) destruct (transmit_transmits (popped s q) r) as [Hk|_ Hf| |u].
    + (* tm_unformattable *) apply finish_class; [intros i x [E|[]]; discriminate|]. intros s' o _. cbn. repeat split; auto. exists r, q. auto.
    + (* tm_write_failed *) apply finish_class; [intros i x [E|[E|[]]]; discriminate|]. intros s' o Hend.
      split; [apply (Hend ReIo SeIoError); reflexivity|]. right. left. repeat split; auto. exists r, q. auto.
    + (* tm_written *) intros [H|[H|[]]]; discriminate.
    + (* tm_writing *) intros [H|[]]; discriminate.
  - (* tk_shutdown_idle *) apply drops_explain, end_session_drops.
  - (* tk_shutdown_down *) apply drops_explain, terminate_drops. intros i x [].
  - (* tk_set *) intros [].
  - (* tk_enabled *) intros [H|[H|[]]]; discriminate.
  - (* tk_disabled_idle *) apply drops_explain, end_session_drops.
  - (* tk_disabled_down *) apply drops_explain, loop_top_drops.
Qed.

Theorem step_class e : In (OComplete id res) (snd (step cfg s e)) ->
  explains s e (fst (step cfg s e)) (snd (step cfg s e)) id res.
Proof.
  destruct (step_steps cfg s e) as [e s' _ _|c st _|c st _ Hc|c st _ _ _|c st _ _|c q Hl Hq|_ _ _|_ _ _ _|s1 d _ _|_
                                   |e _ _|e s0 r res0 Hf|e err se _ _ _|r tx u _|r tx u n _ _|u _ _].
  - (* st_quiet *) intros [].
  - (* st_nohandle *) intros [].
  - (* st_dropped *) intros H. cbn [fst snd] in *. destruct Hc as [Hp| ->].
    + apply in_drop_complete in H. rewrite H. left. exact Hp.
    + apply in_drop_one in H. destruct H as (r & -> & <- & ->). right. exists r. auto.
  - (* st_queued *) intros [].
  - (* st_blocked *) intros [].
  - (* st_take *) apply take_class; assumption.
  - (* st_closed_idle *) apply drops_explain, end_session_drops.
  - (* st_closed_down *) apply drops_explain, terminate_drops. intros i x [].
  - (* st_connected *) intros [H|[]]. discriminate.
  - (* st_refused *) apply drops_explain, wait_for_drops. intros i x [].
  - (* st_crash *) apply drops_explain, crash_drops.
  - (* st_finish *) apply (finish_class e s0 r res0 []); [intros i x []|]. intros s' o. exact (finishes_explains e s0 r res0 s' o Hf).
  - (* st_read_error_idle *) apply drops_explain, end_session_drops.
  - (* st_written *) intros [H|[]]. discriminate.
  - (* st_released *) intros [H|[]]. discriminate.
  - (* st_wait_over *) apply drops_explain, loop_top_drops.
Qed.

End Completion.
End Class.

Section Corollaries.
Variable cfg : config.
Variables (hn : nat) (mt : option N) (rmin rmax : N).
Notation s0 := (init hn mt rmin rmax).

Lemma terminal es : NoDup (all_accepted cfg s0 es) ->
  (pending (fst (run cfg s0 es)) = [] -> forall id, In id (all_accepted cfg s0 es) <-> In id (completed (snd (run cfg s0 es)))) /\
  (ph (fst (run cfg s0 es)) = PDone -> pending (fst (run cfg s0 es)) = []).
Proof. intros H. apply (exactly_once cfg hn mt rmin rmax es H). Qed.
End Corollaries.
