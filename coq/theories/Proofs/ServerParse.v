(* Request::parse against the Spec's decode: for each of the eight function codes the parser
   accepts exactly the PDUs the protocol calls valid and produces the same request. *)
From Coq Require Import NArith List Lia Bool Arith ZifyBool.
From Rodbus Require Import Base.Cursor Model.Range Model.Server Gen.Consts Spec.Modbus.
Import ListNotations.
Local Open Scope N_scope.

Definition byte (b : N) : Prop := b < 256.

(* the Spec request a decoded model request stands for *)
Definition to_spec (r : Server.request) : Modbus.request :=
  match r with
  | RReadCoils rg => Modbus.ReadCoils (fst rg) (snd rg)
  | RReadDiscreteInputs rg => Modbus.ReadDiscreteInputs (fst rg) (snd rg)
  | RReadHoldingRegisters rg => Modbus.ReadHoldingRegisters (fst rg) (snd rg)
  | RReadInputRegisters rg => Modbus.ReadInputRegisters (fst rg) (snd rg)
  | RWriteSingleCoil i b => Modbus.WriteSingleCoil i b
  | RWriteSingleRegister i v => Modbus.WriteSingleRegister i v
  | RWriteMultipleCoils rg bytes => Modbus.WriteMultipleCoils (fst rg) (bits_of (snd rg) bytes)
  | RWriteMultipleRegisters rg bytes => Modbus.WriteMultipleRegisters (fst rg) (regs_of bytes)
  end.

(* what the parser guarantees about a request it accepted *)
Definition req_wf (r : Server.request) : Prop :=
  match r with
  | RReadCoils rg | RReadDiscreteInputs rg => 1 <= snd rg <= 2000 /\ fst rg + snd rg <= 65536
  | RReadHoldingRegisters rg | RReadInputRegisters rg => 1 <= snd rg <= 125 /\ fst rg + snd rg <= 65536
  | RWriteSingleCoil _ _ | RWriteSingleRegister _ _ => True
  | RWriteMultipleCoils rg bytes =>
      1 <= snd rg <= 1968 /\ fst rg + snd rg <= 65536 /\ length bytes = N.to_nat ((snd rg + 7) / 8)
  | RWriteMultipleRegisters rg bytes =>
      1 <= snd rg <= 123 /\ fst rg + snd rg <= 65536 /\ length bytes = (2 * N.to_nat (snd rg))%nat /\ Forall byte bytes
  end.

Lemma try_from_spec s n : s < 65536 -> n < 65536 ->
  try_from s n = if (1 <=? n) && (s + n <=? 65536) then inr (s, n) else inl (if n =? 0 then CountOfZero else AddressOverflow).
Proof.
  intros Hs Hn. unfold try_from.
  destruct (N.eqb_spec n 0) as [->|Hz]; [reflexivity|].
  destruct (N.ltb_spec (65535 - (n - 1)) s), (N.leb_spec 1 n), (N.leb_spec (s + n) 65536); cbn [andb]; try reflexivity; lia.
Qed.

Lemma word_lt a b : byte a -> byte b -> word a b < 65536.
Proof. unfold byte, word. lia. Qed.

(* a range the protocol accepts passes AddressRange::try_from whenever it is validated again *)
Lemma limited_count_ok s n limit : 1 <= n -> s + n <= 65536 ->
  limited_count (s, n) limit = if limit <? n then inl CountTooLargeForType else inr (s, n).
Proof.
  intros Hn Hs. unfold limited_count, try_from. cbn [fst snd].
  destruct (N.eqb_spec n 0); [lia|]. destruct (N.ltb_spec (65535 - (n - 1)) s); [lia|reflexivity].
Qed.

Lemma parse_address_range_spec body : Forall byte body ->
  parse_address_range body =
    match body with
    | s1 :: s0 :: n1 :: n0 :: rest =>
        if (1 <=? word n1 n0) && (word s1 s0 + word n1 n0 <=? 65536) then Some (word s1 s0, word n1 n0, rest) else None
    | _ => None
    end.
Proof.
  intros Hb. unfold parse_address_range, rd_u16. destruct body as [|s1 [|s0 [|n1 [|n0 rest]]]]; try reflexivity.
  inversion Hb as [|? ? B1 T1]; inversion T1 as [|? ? B2 T2]; inversion T2 as [|? ? B3 T3]; inversion T3 as [|? ? B4 T4]; subst.
  change (u16_of s1 s0) with (word s1 s0). change (u16_of n1 n0) with (word n1 n0).
  rewrite try_from_spec by (apply word_lt; assumption).
  destruct ((1 <=? word n1 n0) && (word s1 s0 + word n1 n0 <=? 65536)); reflexivity.
Qed.

Lemma parse_read_spec lim limit mk body :
  (forall r, lim r = limited_count r limit) -> Forall byte body ->
  parse_read lim mk body =
    match body with
    | [s1; s0; n1; n0] => if range_ok (word s1 s0) (word n1 n0) limit then Some (mk (word s1 s0, word n1 n0)) else None
    | _ => None
    end.
Proof.
  intros Hlim Hb. unfold parse_read. rewrite parse_address_range_spec by assumption.
  destruct body as [|s1 [|s0 [|n1 [|n0 rest]]]]; try reflexivity.
  set (s := word s1 s0). set (n := word n1 n0). unfold range_ok.
  destruct (N.leb_spec 1 n); cbn [andb]; [|destruct rest; reflexivity].
  destruct (N.leb_spec (s + n) 65536); cbn [andb]; [|rewrite andb_false_r; destruct rest; reflexivity].
  rewrite Hlim, limited_count_ok by assumption.
  destruct (N.ltb_spec limit n), (N.leb_spec n limit); try lia; cbn [andb]; destruct rest; reflexivity.
Qed.

Lemma parse_write_multiple_spec max nbytes mk body : Forall byte body ->
  parse_write_multiple max nbytes mk body =
    match body with
    | s1 :: s0 :: n1 :: n0 :: _ :: data =>
        if range_ok (word s1 s0) (word n1 n0) max && Nat.eqb (length data) (nbytes (word n1 n0))
        then Some (mk (word s1 s0, word n1 n0) data) else None
    | _ => None
    end.
Proof.
  intros Hb. unfold parse_write_multiple, rd_u8. rewrite parse_address_range_spec by assumption.
  destruct body as [|s1 [|s0 [|n1 [|n0 rest]]]]; try reflexivity.
  set (s := word s1 s0). set (n := word n1 n0). unfold range_ok.
  destruct (N.leb_spec 1 n); cbn [andb]; [|destruct rest; reflexivity].
  destruct (N.leb_spec (s + n) 65536); cbn [andb]; [|rewrite andb_false_r; destruct rest; reflexivity].
  cbn [snd]. destruct (N.ltb_spec max n), (N.leb_spec n max); try lia; cbn [andb].
  { destruct rest; reflexivity. }
  destruct rest as [|bc data]; [reflexivity|].
  unfold parse_all, rd_bytes, expect_empty, rd_is_empty.
  destruct (Nat.leb_spec (nbytes n) (length data)) as [Hle|Hgt].
  - destruct (skipn (nbytes n) data) as [|y r] eqn:Esk.
    + assert (Hlen : length data = nbytes n).
      { pose proof (skipn_length (nbytes n) data) as L. rewrite Esk in L. cbn [length] in L. lia. }
      rewrite Hlen, Nat.eqb_refl. rewrite firstn_all2 by lia. reflexivity.
    + assert (Hlen : (length data > nbytes n)%nat).
      { pose proof (skipn_length (nbytes n) data) as L. rewrite Esk in L. cbn [length] in L. lia. }
      destruct (Nat.eqb_spec (length data) (nbytes n)); [lia|reflexivity].
  - destruct (Nat.eqb_spec (length data) (nbytes n)); [lia|reflexivity].
Qed.

Lemma decode_1 body : decode (1 :: body) = match body with
  | [s1; s0; n1; n0] => if range_ok (word s1 s0) (word n1 n0) 2000 then Valid 1 (Modbus.ReadCoils (word s1 s0) (word n1 n0)) else Invalid 1
  | _ => Invalid 1 end.
Proof. reflexivity. Qed.
Lemma decode_2 body : decode (2 :: body) = match body with
  | [s1; s0; n1; n0] => if range_ok (word s1 s0) (word n1 n0) 2000 then Valid 2 (Modbus.ReadDiscreteInputs (word s1 s0) (word n1 n0)) else Invalid 2
  | _ => Invalid 2 end.
Proof. reflexivity. Qed.
Lemma decode_3 body : decode (3 :: body) = match body with
  | [s1; s0; n1; n0] => if range_ok (word s1 s0) (word n1 n0) 125 then Valid 3 (Modbus.ReadHoldingRegisters (word s1 s0) (word n1 n0)) else Invalid 3
  | _ => Invalid 3 end.
Proof. reflexivity. Qed.
Lemma decode_4 body : decode (4 :: body) = match body with
  | [s1; s0; n1; n0] => if range_ok (word s1 s0) (word n1 n0) 125 then Valid 4 (Modbus.ReadInputRegisters (word s1 s0) (word n1 n0)) else Invalid 4
  | _ => Invalid 4 end.
Proof. reflexivity. Qed.
Lemma decode_5 body : decode (5 :: body) = match body with
  | [a1; a0; v1; v0] =>
      if word v1 v0 =? 0xFF00 then Valid 5 (Modbus.WriteSingleCoil (word a1 a0) true)
      else if word v1 v0 =? 0 then Valid 5 (Modbus.WriteSingleCoil (word a1 a0) false) else Invalid 5
  | _ => Invalid 5 end.
Proof. reflexivity. Qed.
Lemma decode_6 body : decode (6 :: body) = match body with
  | [a1; a0; v1; v0] => Valid 6 (Modbus.WriteSingleRegister (word a1 a0) (word v1 v0))
  | _ => Invalid 6 end.
Proof. reflexivity. Qed.
Lemma decode_15 body : decode (15 :: body) = match body with
  | s1 :: s0 :: n1 :: n0 :: _ :: data =>
      if range_ok (word s1 s0) (word n1 n0) 1968 && (N.of_nat (length data) =? (word n1 n0 + 7) / 8)
      then Valid 15 (Modbus.WriteMultipleCoils (word s1 s0) (bits_of (word n1 n0) data)) else Invalid 15
  | _ => Invalid 15 end.
Proof. reflexivity. Qed.
Lemma decode_16 body : decode (16 :: body) = match body with
  | s1 :: s0 :: n1 :: n0 :: _ :: data =>
      if range_ok (word s1 s0) (word n1 n0) 123 && (N.of_nat (length data) =? 2 * word n1 n0)
      then Valid 16 (Modbus.WriteMultipleRegisters (word s1 s0) (regs_of data)) else Invalid 16
  | _ => Invalid 16 end.
Proof. reflexivity. Qed.

(* fcode_get and decode's tests are matches on numerals: the two lemmas walk the binary digits of the
   function code (six levels reach 16 and the default) *)
Lemma fcode_get_value fv f : fcode_get fv = Some f -> fv = fcode_value f.
Proof.
  intros E. destruct fv as [|p]; [discriminate|].
  do 6 (try (destruct p as [p|p|]; cbn in E; try discriminate E)); inversion E; reflexivity.
Qed.

Lemma decode_unsupported fv body : fcode_get fv = None -> decode (fv :: body) = Unsupported fv.
Proof.
  intros E. destruct fv as [|p]; [reflexivity|].
  do 6 (try (destruct p as [p|p|]; cbn in E; try discriminate E; try reflexivity)).
Qed.

Definition request_fc (r : request) : N :=
  match r with
  | ReadCoils _ _ => 1 | ReadDiscreteInputs _ _ => 2 | ReadHoldingRegisters _ _ => 3 | ReadInputRegisters _ _ => 4
  | WriteSingleCoil _ _ => 5 | WriteSingleRegister _ _ => 6 | WriteMultipleCoils _ _ => 15 | WriteMultipleRegisters _ _ => 16
  end.

(* whatever decode answers about a non-empty PDU, it reports the PDU's first byte as function code, and
   a request it builds is the one of that code *)
Lemma decode_cons fv body :
  match decode (fv :: body) with
  | Empty => False
  | Unsupported fc | Invalid fc => fc = fv
  | Valid fc r => fc = fv /\ fc = request_fc r
  end.
Proof.
  destruct (fcode_get fv) as [f|] eqn:E; [|rewrite (decode_unsupported fv body E); reflexivity].
  apply fcode_get_value in E as ->. destruct f; cbn [fcode_value].
  1-4: rewrite ?decode_1, ?decode_2, ?decode_3, ?decode_4; destruct body as [|s1 [|s0 [|n1 [|n0 [|? ?]]]]]; try reflexivity;
       destruct (range_ok _ _ _); [split|]; reflexivity.
  - rewrite decode_5. destruct body as [|a1 [|a0 [|v1 [|v0 [|? ?]]]]]; try reflexivity.
    destruct (_ =? 65280); [split; reflexivity|]. destruct (_ =? 0); [split|]; reflexivity.
  - rewrite decode_6. destruct body as [|a1 [|a0 [|v1 [|v0 [|? ?]]]]]; try reflexivity. split; reflexivity.
  - rewrite decode_15. destruct body as [|s1 [|s0 [|n1 [|n0 [|bc data]]]]]; try reflexivity. destruct (_ && _); [split|]; reflexivity.
  - rewrite decode_16. destruct body as [|s1 [|s0 [|n1 [|n0 [|bc data]]]]]; try reflexivity. destruct (_ && _); [split|]; reflexivity.
Qed.

Lemma decode_head pdu :
  match decode pdu with
  | Empty => pdu = []
  | Unsupported fc | Invalid fc | Valid fc _ => exists body, pdu = fc :: body
  end.
Proof.
  destruct pdu as [|fv body]; [reflexivity|]. pose proof (decode_cons fv body) as C.
  destruct (decode (fv :: body)) as [|fc|fc|fc r]; [destruct C| | |destruct C as [C _]]; exists body; rewrite C; reflexivity.
Qed.

Lemma decode_valid_fc pdu fc r : decode pdu = Valid fc r -> fc = request_fc r.
Proof.
  intros Hd. destruct pdu as [|fv body]; [discriminate|]. pose proof (decode_cons fv body) as C. rewrite Hd in C. apply C.
Qed.

Lemma range_ok_true s n limit : range_ok s n limit = true -> 1 <= n <= limit /\ s + n <= 65536.
Proof. unfold range_ok. intros H. apply andb_prop in H as [H H3]. apply andb_prop in H as [H1 H2]. lia. Qed.

Definition parse_rel (f : fcode) (body : list N) : Prop :=
  match parse f body with
  | Some r => decode (fcode_value f :: body) = Valid (fcode_value f) (to_spec r) /\ req_wf r /\ get_function r = f
  | None => decode (fcode_value f :: body) = Invalid (fcode_value f)
  end.

Ltac read_case dec lim body :=
  rewrite dec; erewrite parse_read_spec with (limit := lim); [|reflexivity|eassumption];
  destruct body as [|s1 [|s0 [|n1 [|n0 [|? ?]]]]]; try reflexivity;
  let R := fresh "R" in
  match goal with |- context [range_ok ?s ?n ?l] => destruct (range_ok s n l) eqn:R; [|reflexivity] end;
  apply range_ok_true in R; cbn [to_spec req_wf fst snd get_function]; repeat split; try reflexivity; lia.

Lemma parse_decode f body : Forall byte body -> parse_rel f body.
Proof.
  intros Hb. unfold parse_rel. destruct f; cbn [fcode_value parse].
  - read_case decode_1 2000 body.
  - read_case decode_2 2000 body.
  - read_case decode_3 125 body.
  - read_case decode_4 125 body.
  - rewrite decode_5. unfold parse_indexed_bool, rd_u16, expect_empty, rd_is_empty.
    destruct body as [|a1 [|a0 [|v1 [|v0 rest]]]]; try reflexivity.
    change (u16_of a1 a0) with (word a1 a0). change (u16_of v1 v0) with (word v1 v0).
    unfold coil_from_u16. change coil_on with 65280. change coil_off with 0.
    destruct (word v1 v0 =? 65280).
    + destruct rest; [cbn [to_spec req_wf get_function]; auto|reflexivity].
    + destruct (word v1 v0 =? 0); [|destruct rest; reflexivity].
      destruct rest; [cbn [to_spec req_wf get_function]; auto|reflexivity].
  - rewrite decode_6. unfold parse_indexed_u16, rd_u16, expect_empty, rd_is_empty.
    destruct body as [|a1 [|a0 [|v1 [|v0 rest]]]]; try reflexivity.
    destruct rest; [cbn [to_spec req_wf get_function]; auto|reflexivity].
  - rewrite decode_15. rewrite parse_write_multiple_spec by assumption.
    destruct body as [|s1 [|s0 [|n1 [|n0 [|bc data]]]]]; try reflexivity.
    change max_write_coils_count with 1968.
    destruct (range_ok (word s1 s0) (word n1 n0) 1968) eqn:R; cbn [andb]; [|reflexivity].
    apply range_ok_true in R. unfold num_bytes_for_bits.
    destruct (Nat.eqb_spec (length data) (N.to_nat ((word n1 n0 + 7) / 8))) as [E|E],
             (N.eqb_spec (N.of_nat (length data)) ((word n1 n0 + 7) / 8)) as [E'|E']; try lia; [|reflexivity].
    cbn [to_spec req_wf fst snd get_function]. repeat split; try reflexivity; try lia.
  - rewrite decode_16. rewrite parse_write_multiple_spec by assumption.
    destruct body as [|s1 [|s0 [|n1 [|n0 [|bc data]]]]]; try reflexivity.
    change max_write_registers_count with 123.
    destruct (range_ok (word s1 s0) (word n1 n0) 123) eqn:R; cbn [andb]; [|reflexivity].
    apply range_ok_true in R.
    destruct (Nat.eqb_spec (length data) (2 * N.to_nat (word n1 n0))) as [E|E],
             (N.eqb_spec (N.of_nat (length data)) (2 * word n1 n0)) as [E'|E']; try lia; [|reflexivity].
    cbn [to_spec req_wf fst snd get_function]. repeat split; try reflexivity; try lia.
    inversion Hb as [|? ? B1 T1]; inversion T1 as [|? ? B2 T2]; inversion T2 as [|? ? B3 T3]; inversion T3 as [|? ? B4 T4];
      inversion T4 as [|? ? B5 T5]; subst. exact T5.
Qed.
