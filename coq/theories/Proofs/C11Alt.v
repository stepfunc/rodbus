(* C11, run level.  Section Alt: on the wire and in the completion log of ANY run, requests alternate - a request is
   written only when the previously written one has completed (`scan`, run_scan).  Distinct request ids are needed
   at one place only (a Submit that is dropped must not complete the id that is on the wire); the conservation law
   (C10) carries the distinctness along the run.  Last: every request on the wire carries the
   transaction id it was stamped with (run_wire_stamped). *)
From Coq Require Import NArith List Arith Permutation.
From Rodbus Require Import Model.ClientTask Proofs.ClientBase Proofs.C10Proofs Proofs.C11Proofs.
Import ListNotations.
Local Open Scope N_scope.

(* the request written and not yet completed, read off the phase ... *)
Definition wired (p : phase) : option nat := match p with PInFlight r _ _ => Some (rq_id r) | _ => None end.

(* ... and read off an output list: None = a second request was written while one was outstanding *)
Fixpoint scan (cur : option nat) (o : list output) : option (option nat) :=
  match o with
  | [] => Some cur
  | OWire _ id :: r => match cur with None => scan (Some id) r | Some _ => None end
  | OComplete id _ :: r =>
      match cur with
      | Some j => if Nat.eqb id j then scan None r else scan cur r
      | None => scan None r
      end
  | _ :: r => scan cur r
  end.

Lemma scan_app cur o1 o2 : scan cur (o1 ++ o2) = match scan cur o1 with Some c => scan c o2 | None => None end.
Proof.
  revert cur. induction o1 as [|x o1 IH]; intros cur; [reflexivity|]. cbn [app scan].
  destruct x; try apply IH.
  - destruct cur as [j|]; [destruct (Nat.eqb id j)|]; apply IH.
  - destruct cur; [reflexivity|apply IH].
Qed.

Lemma scan_no_wire : forall o cur, wire_ids o = [] ->
  scan cur o = Some (match cur with Some j => if in_dec Nat.eq_dec j (completed o) then None else Some j | None => None end).
Proof.
  induction o as [|x o IH]; intros cur Hw.
  - cbn. destruct cur; reflexivity.
  - destruct x; cbn [scan]; rewrite ?wire_ids_cons in Hw; cbn [app] in Hw; try discriminate;
    try (rewrite IH by exact Hw; destruct cur as [j|]; [|reflexivity];
         change (completed (_ :: o)) with (completed o); reflexivity).
    rewrite completed_cons. cbn [app]. destruct cur as [j|].
    + destruct (Nat.eqb_spec id j) as [->|Hne].
      * rewrite IH by exact Hw. destruct (in_dec Nat.eq_dec j (j :: completed o)) as [_|Hn]; [reflexivity|exfalso; apply Hn; left; reflexivity].
      * rewrite IH by exact Hw.
        destruct (in_dec Nat.eq_dec j (completed o)) as [Hi|Hn]; destruct (in_dec Nat.eq_dec j (id :: completed o)) as [Hi'|Hn']; try reflexivity.
        -- exfalso. apply Hn'. right. exact Hi.
        -- exfalso. destruct Hi' as [E|Hi']; [congruence|contradiction].
    + rewrite IH by exact Hw. reflexivity.
Qed.

(* a transition that writes nothing and leaves nothing in flight strikes off the request on the wire, provided it completes *)
Lemma scan_unwired cur s' o : inflight (ph s') = [] -> wire_ids o = [] -> (forall j, cur = Some j -> In j (completed o)) ->
  scan cur o = Some (wired (ph s')).
Proof.
  intros Hi Hw Hc. rewrite (scan_no_wire _ cur Hw).
  replace (wired (ph s')) with (@None nat) by (destruct (ph s'); try reflexivity; discriminate Hi).
  destruct cur as [j|]; [|reflexivity]. destruct (in_dec Nat.eq_dec j (completed o)) as [_|Hn]; [reflexivity|destruct (Hn (Hc j eq_refl))].
Qed.

Section Alt.
Variable cfg : config.

Lemma take_scan s c : listens (ph s) = true -> scan None (snd (take s c)) = Some (wired (ph (fst (take s c)))).
Proof.
  intros Hl. assert (Hn : wired (ph s) = None) by (destruct (ph s); try reflexivity; discriminate Hl).
  destruct (take_has_shape s c Hl) as [c s1 _ _ Hp|r _|c r _ H|r _].
  - (* tsh_set *) cbn [fst snd]. rewrite Hp, Hn. reflexivity.
  - (* tsh_fail_fast *) cbn [fst snd]. rewrite Hn. reflexivity.
  - (* tsh_summary *) apply scan_unwired; [exact (summary_inflight _ _ _ H)|exact (summary_wire _ _ _ H)|discriminate].
  - (* tsh_transmit *)
    assert (Hfin : forall s0 res pre, wire_ids pre = [] ->
              scan None (snd (emit pre (finish s0 r res))) = Some (wired (ph (fst (emit pre (finish s0 r res)))))).
    { intros s0 res pre Hp. pose proof (finish_summary s0 r res) as H.
      apply scan_unwired; [exact (summary_inflight _ _ _ H)|cbn [emit snd]; rewrite wire_ids_app, Hp; exact (summary_wire _ _ _ H)|discriminate]. }
    destruct (transmit_transmits s r) as [_|_ _| |u]; try (apply Hfin; reflexivity); reflexivity.
Qed.

Lemma step_scan s e : NoDup (pending s ++ accepted s e) ->
  scan (wired (ph s)) (snd (step cfg s e)) = Some (wired (ph (fst (step cfg s e)))).
Proof.
  intros Hnd. assert (Hnil : scan (wired (ph s)) [] = Some (wired (ph s))) by reflexivity.
  destruct (step_has_shape cfg s e) as [c st _|c st Eh|c st _ _ _|c st _ _|e s' _ Hq|c q Hl _|e r _ H|e s0 r tx u _ Hp _ _].
  - (* ssh_nohandle *) exact Hnil.
  - (* ssh_dropped: the one place where the ids must be distinct *)
    cbn [accepted fst snd] in *. rewrite Eh in Hnd. rewrite (scan_no_wire _ _ (wire_ids_drop _)), completed_drop.
    destruct (ph s) eqn:Eph; try reflexivity. cbn [wired]. destruct (in_dec Nat.eq_dec (rq_id r) (queued [c])) as [Hi|_]; [|reflexivity].
    destruct (NoDup_app_inv _ _ Hnd) as (_ & _ & Hdis). destruct (Hdis (rq_id r)); [unfold pending; rewrite Eph; left; reflexivity|exact Hi].
  - (* ssh_queued *) exact Hnil.
  - (* ssh_blocked *) exact Hnil.
  - (* ssh_quiet *) cbn [fst snd]. rewrite (quiet_ph _ _ Hq). exact Hnil.
  - (* ssh_take *) replace (wired (ph s)) with (@None nat) by (destruct (ph s); try reflexivity; discriminate Hl).
    exact (take_scan (popped s q) c Hl).
  - (* ssh_summary *) apply scan_unwired; [exact (summary_inflight _ _ _ H)|exact (summary_wire _ _ _ H)|].
    intros j Ej. apply (summary_completes _ _ _ _ H). destruct (ph s); try discriminate Ej. inversion Ej. left. reflexivity.
  - (* ssh_written *) rewrite Hp. reflexivity.
Qed.

Theorem run_scan : forall es s, done_empty s -> NoDup (pending s ++ all_accepted cfg s es) ->
  exists c, scan (wired (ph s)) (snd (run cfg s es)) = Some c.
Proof.
  induction es as [|e es IH]; intros s Hd Hnd; cbn [run all_accepted] in *.
  - eexists. reflexivity.
  - assert (Hnd1 : NoDup (pending s ++ accepted s e)) by (rewrite app_assoc in Hnd; exact (proj1 (NoDup_app_inv _ _ Hnd))).
    pose proof (step_scan s e Hnd1) as S. pose proof (step_conserve cfg s e Hd) as C.
    destruct (step cfg s e) as [s1 o1]. cbn [fst snd] in *. destruct C as [C D1].
    (* what completed in this step left `pending`, what was accepted entered it: the ids stay distinct *)
    assert (Hnd2 : NoDup (pending s1 ++ all_accepted cfg s1 es)).
    { apply (NoDup_app_inv (completed o1)). eapply Permutation_NoDup; [apply Permutation_app_swap_app|]. rewrite app_assoc.
      eapply Permutation_NoDup; [|rewrite app_assoc in Hnd; exact Hnd]. apply Permutation_app_tail. symmetry. exact C. }
    destruct (IH s1 D1 Hnd2) as [c Hc]. destruct (run cfg s1 es) as [s2 o2]. cbn [snd] in *.
    exists c. rewrite scan_app, S. exact Hc.
Qed.

End Alt.

Theorem run_wire_stamped cfg : forall es s o0,
  (forall r tx u, ph s = PWriting r tx u -> In (OStamp tx (rq_id r)) o0) ->
  (forall tx id, In (OWire tx id) o0 -> In (OStamp tx id) o0) ->
  forall tx id, In (OWire tx id) (o0 ++ snd (run cfg s es)) -> In (OStamp tx id) (o0 ++ snd (run cfg s es)).
Proof.
  induction es as [|e es IH]; intros s o0 Hw H0 tx id.
  - cbn [run snd]. rewrite app_nil_r. apply H0.
  - pose proof (step_wire cfg s e) as Hwire. pose proof (step_entersw cfg s e) as Hent.
    rewrite run_cons. cbn [snd]. rewrite app_assoc. apply IH.
    + intros r t u Hp. apply in_or_app. destruct (Hent r t u Hp) as [Hs|Hs]; [left; exact (Hw r t u Hs)|right; exact Hs].
    + intros t i Hin. apply in_app_or in Hin. apply in_or_app. destruct Hin as [Hin|Hin]; [left; exact (H0 t i Hin)|].
      destruct (wire_law_src _ _ _ t i Hwire Hin) as [Hs|(r & u & Hp & <-)]; [right; exact Hs|left; exact (Hw r t u Hp)].
Qed.
