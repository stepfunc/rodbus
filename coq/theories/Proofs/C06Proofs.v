(* C06 at the level of sessions over RTU, both parser roles: chunking independence (rtu_any_schedule, rtu_chunking), what
   format_rtu_pdu emits (rtu_emit), error patterns on byte strings and their detection by the CRC (detect_frame, on top of
   CrcProofs), the gate (every delivered frame is carried by the stream with its own CRC: rref_gate, rtu_gate, reopen_gate),
   a delimited frame with a wrong / right CRC, cancel-safety, the Spec over s1 ++ s2, a bus that goes on
   (rtu_reader_represents), and the server's one reader across port re-opens (rtu_reopen). The reader-level statements are
   ReaderGeneric's theorems for the RTU parser (RtuProofs.rtu_parser). *)
From Coq Require Import NArith List Arith Lia ZifyN. (* ZifyN: `lia` on division and remainder of `N` (the CRC trailer as lo + 256 * hi) *)
From Rodbus Require Import Base.Outcome Base.Cursor Base.Frame Gen.RtuLengths Model.Buffer Model.Crc Model.Rtu Model.Reader Model.Format
  Spec.Framing Proofs.BufferProofs Proofs.ReaderGeneric Proofs.SpecCut Proofs.MbapProofs Proofs.CrcProofs Proofs.RtuProofs Proofs.C05Proofs.
Import ListNotations.

Definition kind_of (p : ptype) : framing_kind := match p with Request => KRtuRequest | Response => KRtuResponse end.

Lemma bytes_concat chunks : bytes (concat chunks) -> Forall bytes chunks.
Proof.
  induction chunks as [|c n IH]; intros H; [constructor|]. cbn [concat] in H. unfold bytes in H. apply Forall_app in H as [H1 H2].
  constructor; [exact H1|apply IH, H2].
Qed.

Theorem rtu_any_schedule : forall p chunks fi, Forall bytes chunks ->
  run_session (kind_of p) false chunks fi =
  liftr (ref_rtu_frames (role_of p) (fst (sched_stream chunks fi)) (snd (sched_stream chunks fi))).
Proof.
  intros p chunks fi Hb. rewrite sched_stream_eq. cbn [fst snd]. unfold run_session, ref_rtu_frames.
  pose proof (rtu_parser p _ session_ref chunks fi (S (length (sbytes chunks))) Hb ltac:(lia)) as H.
  destruct p; exact H.
Qed.

Theorem rtu_chunking : forall p s chunks fi,
  bytes s -> concat chunks = s -> Forall (fun c => c <> []) chunks ->
  run_session (kind_of p) false chunks fi = liftr (ref_rtu_frames (role_of p) s fi).
Proof.
  intros p s chunks fi Hb Hs Hne. subst s. rewrite (rtu_any_schedule p chunks fi (bytes_concat _ Hb)), sched_stream_eq. cbn [fst snd].
  destruct (sbytes_nonempty chunks Hne) as [-> Hf]. now rewrite Hf.
Qed.

(* a body serializer only ever appends to the cursor (scursor::WriteCursor has no other operation
   that Serialize impls use) *)
Definition appends {E} (body : wcur -> outcome E wcur) : Prop :=
  forall w w', body w = Ok w' -> w_cap w' = w_cap w /\ exists bs, w_out w' = w_out w ++ bs.

Lemma wr_u8_some w b w' : wr_u8 w b = Some w' -> w_cap w' = w_cap w /\ w_out w' = w_out w ++ [b] /\ length (w_out w') <= w_cap w.
Proof.
  unfold wr_u8. destruct (Nat.ltb_spec (length (w_out w)) (w_cap w)); [|discriminate].
  intros Hq; inversion Hq; subst; cbn [w_cap w_out]. rewrite app_length; cbn [length]. repeat split; lia.
Qed.

Theorem rtu_emit : forall {E} (ew : E) cap dest fcv (body : wcur -> outcome E wcur) bs,
  appends body -> rtu_format ew cap dest fcv body = Ok bs ->
  exists pdu_body, bs = rtu_frame_of dest (fcv :: pdu_body) /\ length bs <= cap /\
                   (length (fcv :: pdu_body) <= 253 -> length bs <= 256).
Proof.
  intros E ew cap dest fcv body bs Happ. unfold rtu_format, obind, w, of_option.
  destruct (wr_u8 (wnew cap) dest) as [w1|] eqn:E1; [|discriminate].
  destruct (wr_u8 w1 fcv) as [w2|] eqn:E2; [|discriminate].
  destruct (body w2) as [w3| |] eqn:E3; try discriminate.
  unfold wr_u16_le. destruct (wr_u8 w3 (lo8 (crc (w_out w3)))) as [w4|] eqn:E4; [|discriminate].
  destruct (wr_u8 w4 (hi8 (crc (w_out w3)))) as [w5|] eqn:E5; [|discriminate].
  intros H; inversion H; subst; clear H.
  apply wr_u8_some in E1 as (C1 & O1 & _). apply wr_u8_some in E2 as (C2 & O2 & _).
  destruct (Happ _ _ E3) as (C3 & pb & O3). apply wr_u8_some in E4 as (C4 & O4 & _). apply wr_u8_some in E5 as (C5 & O5 & L5).
  cbn [wnew w_out w_cap app] in *. exists pb.
  assert (Hout3 : w_out w3 = dest :: fcv :: pb) by (rewrite O3, O2, O1; reflexivity).
  assert (Hbs : w_out w5 = rtu_frame_of dest (fcv :: pb)).
  { rewrite O5, O4, Hout3. unfold rtu_frame_of, lo8, hi8. cbn [app]. rewrite <- !app_assoc. reflexivity. }
  split; [exact Hbs|]. split; [lia|]. intros Hl. rewrite Hbs. unfold rtu_frame_of. cbn [length] in *. rewrite app_length. cbn [length]. lia.
Qed.

(* detection: error patterns on byte strings *)
Local Open Scope N_scope.

Lemma bits8_lxor a b : bits8 (N.lxor a b) = xorl (bits8 a) (bits8 b).
Proof. apply testbits_lxor. Qed.
Lemma bits8_length a : length (bits8 a) = 8%nat. Proof. reflexivity. Qed.
Lemma bits_of_length l : length (bits_of l) = (8 * length l)%nat.
Proof. induction l as [|a l IH]; [reflexivity|]. cbn [bits_of flat_map]. rewrite app_length, bits8_length. fold (bits_of l). rewrite IH. cbn [length]. lia. Qed.
Lemma xorl_app a1 : forall b1 a2 b2, length a1 = length b1 -> xorl (a1 ++ a2) (b1 ++ b2) = xorl a1 b1 ++ xorl a2 b2.
Proof. induction a1 as [|x a1 IH]; intros [|y b1] a2 b2 H; try discriminate; [reflexivity|]. cbn. f_equal. apply IH. now injection H. Qed.
Lemma bits_of_xor body : forall eb, length eb = length body -> bits_of (xor_bytes body eb) = xorl (bits_of body) (bits_of eb).
Proof.
  induction body as [|x body IH]; intros [|y eb] H; try discriminate; [reflexivity|].
  cbn [xor_bytes bits_of flat_map]. fold (bits_of (xor_bytes body eb)) (bits_of body) (bits_of eb).
  rewrite xorl_app by reflexivity. rewrite bits8_lxor, IH; [reflexivity|now injection H].
Qed.
Lemma xor_bytes_length a : forall b, length b = length a -> length (xor_bytes a b) = length a.
Proof. induction a as [|x a IH]; intros [|y b] H; try discriminate; [reflexivity|]. cbn. f_equal. apply IH. now injection H. Qed.

Lemma crc_bits l : bytes l -> crc l = run 65535 (bits_of l).
Proof. intros H. unfold crc. now apply crc_from_bits. Qed.

(* a corrupted frame (body xor eb, CRC word xor e) verifies iff the error pattern has zero syndrome *)
Theorem detect_iff_syndrome body eb e : bytes body -> length eb = length body -> e < W ->
  bytes (xor_bytes body eb) ->
  (N.lxor (crc body) e = crc (xor_bytes body eb) <-> syn (bits_of eb ++ bits16 e) = 0).
Proof.
  intros Hb Hl He Hx. rewrite (crc_bits body Hb), (crc_bits _ Hx), bits_of_xor by assumption.
  apply accept_iff_syndrome; [|assumption|reflexivity]. rewrite !bits_of_length. lia.
Qed.

Lemma single_detected a z : syn (zeros a ++ [true] ++ zeros z) <> 0.
Proof.
  unfold syn. rewrite !run_app, !run_zeros, pw_0. cbn [run fold_left]. unfold bstep. cbn [b2n]. rewrite N.lxor_0_l.
  intros E. apply pw_zero in E; [|apply step1_lt; reflexivity]. apply step1_zero in E; [discriminate|reflexivity].
Qed.

(* bursts shorter than 16 bits, anywhere in a frame of at least 16 bits *)
(* a 16-element bit list is bits16 of a number below 2^16 *)
Fixpoint of_bits (l : list bool) : N := match l with [] => 0 | b :: l => b2n b + 2 * of_bits l end.
Lemma of_bits_lt l : of_bits l < 2 ^ N.of_nat (length l).
Proof.
  induction l as [|b l IH]; [reflexivity|]. cbn [of_bits length]. rewrite Nat2N.inj_succ, N.pow_succ_r'.
  destruct b; cbn [b2n]; lia.
Qed.
Lemma testbit_of_bits l : forall i, N.testbit (of_bits l) (N.of_nat i) = nth i l false.
Proof.
  induction l as [|b l IH]; intros i; [destruct i; reflexivity|]. cbn [of_bits]. destruct i as [|i].
  - cbn [nth N.of_nat]. destruct b; cbn [b2n]; [rewrite N.add_comm; apply N.testbit_odd_0 | rewrite N.add_0_l; apply N.testbit_even_0].
  - rewrite Nat2N.inj_succ. cbn [nth]. destruct b; cbn [b2n].
    + rewrite N.add_comm. rewrite N.testbit_odd_succ by lia. apply IH.
    + rewrite N.add_0_l. rewrite N.testbit_even_succ by lia. apply IH.
Qed.
Lemma bits16_of_bits l : length l = 16%nat -> bits16 (of_bits l) = l.
Proof.
  intros H. do 17 (destruct l as [|? l]; try discriminate). clear H.
  unfold bits16. cbn [seq map]. rewrite !testbit_of_bits. reflexivity.
Qed.
Lemma of_bits_zero l : of_bits l = 0 -> l = repeat false (length l).
Proof.
  induction l as [|b l IH]; [reflexivity|]. cbn [of_bits length repeat]. destruct b; cbn [b2n]; [lia|].
  intros H. f_equal. apply IH. lia.
Qed.

Lemma zeros_app a c : zeros (a + c) = zeros a ++ zeros c.
Proof. unfold zeros. apply repeat_app. Qed.

Lemma skipn_zeros_app n (l : list bool) : skipn n (zeros n ++ l) = l.
Proof. induction n; [reflexivity|]. cbn. assumption. Qed.

(* a burst of at most 16 bits: w starts anywhere, is at most 16 long and not all zero; the frame has at least 16 bits *)
Theorem short_burst_is_window a w z :
  (length w <= 16)%nat -> w <> zeros (length w) -> (16 <= a + length w + z)%nat ->
  exists a' x z', x < 65536 /\ x <> 0 /\ zeros a ++ w ++ zeros z = zeros a' ++ bits16 x ++ zeros z'.
Proof.
  intros Hw Hnz Hlen. set (p := (16 - length w)%nat).
  (* pad to the right as far as z allows, the rest to the left *)
  set (pr := Nat.min p z). set (pl := (p - pr)%nat).
  exists (a - pl)%nat, (of_bits (zeros pl ++ w ++ zeros pr)), (z - pr)%nat.
  assert (Hl16 : length (zeros pl ++ w ++ zeros pr) = 16%nat).
  { rewrite !app_length. unfold zeros. rewrite !repeat_length. unfold pl, pr, p. lia. }
  split; [|split].
  - pose proof (of_bits_lt (zeros pl ++ w ++ zeros pr)) as H. rewrite Hl16 in H. exact H.
  - intros E. apply of_bits_zero in E. rewrite Hl16 in E. apply Hnz.
    (* the middle part of an all-zero list is all zero *)
    assert (Hm : w = firstn (length w) (skipn pl (zeros pl ++ w ++ zeros pr))).
    { now rewrite skipn_zeros_app, firstn_app_le, firstn_all. }
    rewrite Hm at 1. rewrite E.
    assert (forall n k, skipn k (repeat false n) = repeat false (n - k)) as Hs.
    { induction n; intros [|k]; cbn; auto. }
    assert (forall n k, firstn k (repeat false n) = repeat false (Nat.min k n)) as Hf.
    { induction n; intros [|k]; cbn; auto. f_equal. apply IHn. }
    rewrite Hs, Hf. unfold zeros. f_equal. unfold pl, pr, p. lia.
  - rewrite bits16_of_bits by exact Hl16. rewrite <- !app_assoc.
    assert (Hpl : (pl <= a)%nat) by (unfold pl, pr, p; lia).
    assert (Hpr : (pr <= z)%nat) by (unfold pr; lia).
    replace a with ((a - pl) + pl)%nat at 1 by lia. replace z with (pr + (z - pr))%nat at 1 by lia.
    rewrite !zeros_app, <- !app_assoc. reflexivity.
Qed.

(* the error classes of `err_class`, as patterns over the bits of the whole frame in wire order
   (byte by byte, least significant bit first; the CRC trailer low byte first) *)
Lemma err_class_syn bs : err_class bs -> syn bs <> 0.
Proof.
  intros [(a & z & ->)|[(a & d & z & Hd & ->)|[(a & x & z & Hx & Hn & ->)|(a & w & z & Hw & Hnz & Hl & ->)]]].
  - apply single_detected.
  - now apply double_detected.
  - now apply burst_detected.
  - rewrite !app_length in Hl. unfold zeros in Hl. rewrite !repeat_length in Hl.
    destruct (short_burst_is_window a w z Hw Hnz ltac:(lia)) as (a' & x & z' & Hx & Hn & ->). now apply burst_detected.
Qed.

Theorem detect_word body eb e : bytes body -> length eb = length body -> e < W -> bytes (xor_bytes body eb) ->
  err_class (bits_of eb ++ bits16 e) -> N.lxor (crc body) e <> crc (xor_bytes body eb).
Proof. intros Hb Hl He Hx Hc H. apply (detect_iff_syndrome body eb e Hb Hl He Hx) in H. exact (err_class_syn _ Hc H). Qed.

(* the trailer as two bytes *)
Lemma bits16_split w : bits16 w = bits8 (w mod 256) ++ bits8 (w / 256).
Proof.
  unfold bits16, bits8. cbn [seq map app]. change 256 with (2 ^ 8).
  rewrite !N.mod_pow2_bits_low by reflexivity. rewrite !N.div_pow2_bits. reflexivity.
Qed.
Lemma bits16_bytes a b : a < 256 -> bits16 (a + 256 * b) = bits8 a ++ bits8 b.
Proof.
  intros Ha. rewrite bits16_split, (N.mul_comm 256 b), N.mod_add, N.div_add by discriminate.
  now rewrite N.mod_small, N.div_small.
Qed.
Lemma lxor_lt8 a b : a < 256 -> b < 256 -> N.lxor a b < 256.
Proof. exact (lxor_lt_pow2 8 a b). Qed.
Lemma word_lxor a b c d : a < 256 -> b < 256 -> c < 256 -> d < 256 ->
  N.lxor (a + 256 * b) (c + 256 * d) = N.lxor a c + 256 * N.lxor b d.
Proof.
  intros Ha Hb Hc Hd. pose proof (lxor_lt8 a c Ha Hc). pose proof (lxor_lt8 b d Hb Hd).
  apply bits16_inj; [apply lxor_lt; unfold W; lia|unfold W; lia|].
  rewrite bits16_lxor, !bits16_bytes by assumption. rewrite xorl_app by reflexivity. now rewrite !bits8_lxor.
Qed.
Lemma bytes_xor a : forall b, bytes a -> bytes b -> bytes (xor_bytes a b).
Proof.
  induction a as [|x a IH]; intros [|y b] Ha Hb; try constructor.
  - inversion Ha; inversion Hb; subst. now apply lxor_lt8.
  - inversion Ha; inversion Hb; subst. now apply IH.
Qed.
Lemma xor_bytes_app a1 : forall b1 a2 b2, length a1 = length b1 -> xor_bytes (a1 ++ a2) (b1 ++ b2) = xor_bytes a1 b1 ++ xor_bytes a2 b2.
Proof. induction a1 as [|x a1 IH]; intros [|y b1] a2 b2 H; try discriminate; [reflexivity|]. cbn. f_equal. apply IH. now injection H. Qed.
Lemma bits_of_app a b : bits_of (a ++ b) = bits_of a ++ bits_of b.
Proof. unfold bits_of. apply flat_map_app. Qed.

(* C06_detect: a valid frame (body ++ CRC low, high) hit by an error pattern of one of the three
   classes never verifies. Frame = any byte string; no length bound except the one the class carries *)
Theorem detect_frame body lo hi eb elo ehi :
  bytes (body ++ [lo; hi]) -> bytes (eb ++ [elo; ehi]) -> length eb = length body ->
  lo + 256 * hi = crc body ->
  err_class (bits_of (eb ++ [elo; ehi])) ->
  xor_bytes (body ++ [lo; hi]) (eb ++ [elo; ehi]) = xor_bytes body eb ++ [N.lxor lo elo; N.lxor hi ehi] /\
  N.lxor lo elo + 256 * N.lxor hi ehi <> crc (xor_bytes body eb).
Proof.
  intros HF HE Hl Hcrc Hcls. unfold bytes in HF, HE. apply Forall_app in HF as [Hb Ht]. apply Forall_app in HE as [Heb Het].
  inversion Ht as [|? ? Hlo Ht']; subst. inversion Ht' as [|? ? Hhi _]; subst.
  inversion Het as [|? ? Helo Het']; subst. inversion Het' as [|? ? Hehi _]; subst.
  split; [rewrite xor_bytes_app by (symmetry; exact Hl); reflexivity|].
  rewrite <- word_lxor by assumption. rewrite Hcrc.
  apply detect_word; [exact Hb|exact Hl|unfold W; lia|now apply bytes_xor|].
  rewrite bits_of_app in Hcls. cbn [bits_of flat_map] in Hcls. rewrite app_nil_r in Hcls. now rewrite bits16_bytes.
Qed.

Local Close Scope N_scope.

Lemma split_at_trailer (t : list N) plen : plen + 2 <= length t ->
  t = firstn plen t ++ [nth plen t 0%N; nth (plen + 1) t 0%N] ++ skipn (plen + 2) t.
Proof.
  intros H. rewrite <- (firstn_skipn plen t) at 1. f_equal.
  destruct (skipn plen t) as [|x [|y r]] eqn:E;
    try (apply (f_equal (@length N)) in E; rewrite skipn_length in E; cbn in E; lia).
  assert (Hx : nth plen t 0%N = x) by (rewrite <- (Nat.add_0_r plen), nth_skipn_add, E; reflexivity).
  assert (Hy : nth (plen + 1) t 0%N = y) by (rewrite nth_skipn_add, E; reflexivity).
  rewrite Hx, Hy. cbn [app]. do 2 f_equal. rewrite <- skipn_skipn', E. reflexivity.
Qed.

(* the stream holds the frame's address and PDU followed by the CRC of exactly these, low byte first *)
Definition carries (s : list N) (f : frame) : Prop :=
  exists pre post, s = pre ++ rtu_frame_of (f_dest f) (f_pdu f) ++ post.

Lemma bcut_carries d plen t f rest : bytes t -> bcut d plen t = CFrame f rest -> d :: t = rtu_frame_of (f_dest f) (f_pdu f) ++ rest.
Proof.
  intros Hb. unfold bcut. destruct (Nat.ltb 253 plen); [discriminate|].
  destruct (Nat.ltb_spec (length t) (plen + 2)) as [|Hlen]; [discriminate|]. cbv zeta.
  destruct (N.eqb_spec (nth plen t 0 + 256 * nth (plen + 1) t 0)%N (crc (d :: firstn plen t))) as [E|E]; [|discriminate].
  intros Hq; inversion Hq; subst. cbn [mkr f_dest f_pdu]. unfold rtu_frame_of. cbn [app]. f_equal.
  rewrite (split_at_trailer t plen Hlen) at 1. rewrite <- !app_assoc. f_equal.
  pose proof (bytes_nth t plen Hb) as H1. pose proof (bytes_nth t (plen + 1) Hb) as H2.
  rewrite <- E. cbn [app]. f_equal; [lia|f_equal; lia].
Qed.
Lemma rcut_carries r s f rest : bytes s -> rcut r s = CFrame f rest -> s = rtu_frame_of (f_dest f) (f_pdu f) ++ rest.
Proof.
  destruct s as [|d [|fc t]]; try discriminate. intros Hb.
  destruct (rcut_cases r d fc t) as [->|[->|[plen ->]]]; try discriminate. apply bcut_carries. now inversion Hb.
Qed.

(* C06_gate at the Spec level *)
Lemma rref_gate r : forall F s fi, bytes s -> forall f, In f (fst (rref F r s fi)) -> carries s f.
Proof.
  induction F as [|F IH]; intros s fi Hb f; [intros []|]. rewrite rref_S.
  destruct (rcut r s) as [|e l|f0 rest] eqn:E; cbn [cframes]; try (intros []).
  pose proof (rcut_carries r s f0 rest Hb E) as Hs. specialize (IH rest fi).
  destruct (rref F r rest fi) as [fs e]. cbn [consf fst In] in *. intros [<-|Hin]; [now exists [], rest|].
  rewrite Hs in Hb. apply Forall_app in Hb as [_ Hbr]. destruct (IH Hbr f Hin) as (pre & post & Hp).
  exists (rtu_frame_of (f_dest f0) (f_pdu f0) ++ pre), post. now rewrite Hs, Hp, app_assoc.
Qed.

Theorem rtu_gate : forall p chunks fi f, Forall bytes chunks ->
  In (IFrame f) (fst (run_session (kind_of p) false chunks fi)) ->
  carries (fst (sched_stream chunks fi)) f.
Proof.
  intros p chunks fi f Hb. rewrite (rtu_any_schedule p chunks fi Hb), sched_stream_eq. cbn [fst snd liftr].
  rewrite in_map_iff. intros (f' & Hf & Hin). inversion Hf; subst.
  exact (rref_gate (role_of p) _ _ _ (okl_sbytes bytes bytes_nil bytes_app chunks Hb) _ Hin).
Qed.

Lemma body_at_frame k fi addr pdu lo hi rest : length pdu <= 253 ->
  ref_rtu_body k fi addr (length pdu) (pdu ++ [lo; hi] ++ rest) =
  if N.eqb (lo + 256 * hi) (crc (addr :: pdu))
  then (let '(fs, e) := k rest in ({| f_tx := None; f_dest := addr; f_bcast := N.eqb addr 0; f_pdu := pdu |} :: fs, e))
  else ([], EndBad (CrcValidationFailure (lo + 256 * hi) (crc (addr :: pdu)))).
Proof.
  intros Hl. unfold ref_rtu_body. destruct (Nat.ltb_spec 253 (length pdu)); [lia|].
  destruct (Nat.ltb_spec (length (pdu ++ [lo; hi] ++ rest)) (length pdu + 2)) as [Hx|_];
    [rewrite !app_length in Hx; cbn [length] in Hx; lia|].
  rewrite firstn_app_le, firstn_all by lia.
  rewrite (app_nth2 pdu) by lia. rewrite (app_nth2 pdu) by lia.
  replace (length pdu - length pdu) with 0 by lia. replace (length pdu + 1 - length pdu) with 1 by lia. cbn [nth app].
  rewrite skipn_app, skipn_all2 by lia. replace (length pdu + 2 - length pdu) with 2 by lia. reflexivity.
Qed.

Lemma rref_one_frame r F addr pdu lo hi rest fi : delimited r pdu -> length pdu <= 253 ->
  rref (S F) r (addr :: pdu ++ [lo; hi] ++ rest) fi =
  if N.eqb (lo + 256 * hi) (crc (addr :: pdu))
  then (let '(fs, e) := rref F r rest fi in ({| f_tx := None; f_dest := addr; f_bcast := N.eqb addr 0; f_pdu := pdu |} :: fs, e))
  else ([], EndBad (CrcValidationFailure (lo + 256 * hi) (crc (addr :: pdu)))).
Proof.
  intros Hd Hl. destruct pdu as [|fcv body]; [destruct Hd|]. cbn [app rref]. cbn [delimited] in Hd.
  change (fcv :: body ++ lo :: hi :: rest) with ((fcv :: body) ++ [lo; hi] ++ rest).
  destruct (length_rule r fcv) as [n|off|]; [| |destruct Hd].
  - rewrite <- Hd. now apply body_at_frame.
  - destruct Hd as [Ho Hd]. rewrite app_length. destruct (Nat.ltb_spec (length (fcv :: body) + length ([lo; hi] ++ rest)) (1 + off)); [lia|].
    rewrite app_nth1 by lia. rewrite <- Hd. now apply body_at_frame.
Qed.

Theorem rtu_detect_session : forall p addr pdu lo hi rest chunks fi,
  bytes (addr :: pdu ++ [lo; hi] ++ rest) -> delimited (role_of p) pdu -> length pdu <= 253 ->
  (lo + 256 * hi)%N <> crc (addr :: pdu) ->
  concat chunks = addr :: pdu ++ [lo; hi] ++ rest -> Forall (fun c => c <> []) chunks ->
  run_session (kind_of p) false chunks fi = ([], EndBad (CrcValidationFailure (lo + 256 * hi) (crc (addr :: pdu)))).
Proof.
  intros p addr pdu lo hi rest chunks fi Hb Hd Hl Hne Hs Hnc.
  rewrite (rtu_chunking p _ chunks fi Hb Hs Hnc). unfold ref_rtu_frames. rewrite rref_one_frame by assumption.
  destruct (N.eqb_spec (lo + 256 * hi) (crc (addr :: pdu))); [contradiction|reflexivity].
Qed.

(* ... and a delimited frame whose CRC verifies IS delivered (the gate is not vacuous) *)
Theorem rtu_accept : forall p addr pdu chunks fi,
  bytes (rtu_frame_of addr pdu) -> delimited (role_of p) pdu -> length pdu <= 253 ->
  concat chunks = rtu_frame_of addr pdu -> Forall (fun c => c <> []) chunks ->
  run_session (kind_of p) false chunks fi =
  ([IFrame {| f_tx := None; f_dest := addr; f_bcast := N.eqb addr 0; f_pdu := pdu |}], end_of fi).
Proof.
  intros p addr pdu chunks fi Hb Hd Hl Hs Hnc.
  rewrite (rtu_chunking p _ chunks fi Hb Hs Hnc). unfold ref_rtu_frames, rtu_frame_of.
  change (addr :: pdu ++ [(crc (addr :: pdu) mod 256)%N; (crc (addr :: pdu) / 256)%N])
    with (addr :: pdu ++ [(crc (addr :: pdu) mod 256)%N; (crc (addr :: pdu) / 256)%N] ++ []).
  rewrite rref_one_frame by assumption.
  replace (crc (addr :: pdu) mod 256 + 256 * (crc (addr :: pdu) / 256))%N with (crc (addr :: pdu)) by lia.
  rewrite N.eqb_refl. cbn [length]. reflexivity.
Qed.

(* a valid frame hit by a length-preserving error pattern of one of the classes: CrcValidationFailure,
   nothing delivered, whatever follows and however the bytes are cut into reads *)
Theorem rtu_corrupted_frame_rejected : forall p addr pdu lo hi ea epdu elo ehi rest chunks fi,
  bytes (addr :: pdu ++ [lo; hi]) -> bytes (ea :: epdu ++ [elo; ehi]) -> bytes rest -> length epdu = length pdu ->
  (lo + 256 * hi)%N = crc (addr :: pdu) ->
  err_class (bits_of (ea :: epdu ++ [elo; ehi])) ->
  delimited (role_of p) (xor_bytes pdu epdu) -> length pdu <= 253 ->
  concat chunks = xor_bytes (addr :: pdu ++ [lo; hi]) (ea :: epdu ++ [elo; ehi]) ++ rest -> Forall (fun c => c <> []) chunks ->
  exists received expected, received <> expected /\
    run_session (kind_of p) false chunks fi = ([], EndBad (CrcValidationFailure received expected)).
Proof.
  intros p addr pdu lo hi ea epdu elo ehi rest chunks fi HF HE Hrest Hl Hcrc Hcls Hdel Hlen Hs Hnc.
  change (addr :: pdu ++ [lo; hi]) with ((addr :: pdu) ++ [lo; hi]) in *.
  change (ea :: epdu ++ [elo; ehi]) with ((ea :: epdu) ++ [elo; ehi]) in *.
  destruct (detect_frame (addr :: pdu) lo hi (ea :: epdu) elo ehi HF HE ltac:(cbn [length]; now rewrite Hl) Hcrc Hcls) as [Hx Hne].
  rewrite Hx in Hs. cbn [xor_bytes app] in Hs, Hne.
  exists (N.lxor lo elo + 256 * N.lxor hi ehi)%N, (crc (N.lxor addr ea :: xor_bytes pdu epdu)). split; [exact Hne|].
  apply (rtu_detect_session p (N.lxor addr ea) (xor_bytes pdu epdu) (N.lxor lo elo) (N.lxor hi ehi) rest chunks fi); try assumption.
  - assert (Hb : bytes (xor_bytes ((addr :: pdu) ++ [lo; hi]) ((ea :: epdu) ++ [elo; ehi]))) by (apply bytes_xor; assumption).
    rewrite Hx in Hb. cbn [xor_bytes app] in Hb. unfold bytes in *.
    inversion Hb as [|? ? HA HX]; subst. constructor; [exact HA|]. apply Forall_app in HX as [H1 H2].
    apply Forall_app; split; [exact H1|]. apply Forall_app; split; [exact H2|exact Hrest].
  - rewrite xor_bytes_length by assumption. exact Hlen.
  - rewrite Hs. cbn [app]. now rewrite <- app_assoc.
Qed.

Definition is_rtu (p : ptype) (r : reader) : Prop := match r_parser r with PRtu q _ => q = p | _ => False end.

Theorem rtu_cancel_safe : forall p st b n1 n2 fi r1 n1',
  wf b -> bytes (b_pend b) -> Forall bytes n1 -> Forall bytes n2 -> rst_ok st ->
  next_frame (nf_fuel n1) (rd rstate (PRtu p) st b) n1 FinPending = (r1, n1', NfEnd EndPending) ->
  next_frame (nf_fuel n2) r1 n2 fi = next_frame (nf_fuel (n1 ++ n2)) (rd rstate (PRtu p) st b) (n1 ++ n2) fi /\
  n1' = [] /\ exists st1 b1, r1 = rd rstate (PRtu p) st1 b1 /\ wf b1 /\ bytes (b_pend b1) /\ rst_ok st1.
Proof.
  intros p. exact (rtu_parser p _ nf_cancel_safe_fuel (rtu_stable p)).
Qed.

Theorem rtu_cancel_safe_session : forall p chunks fi, Forall bytes chunks ->
  run_cancel (reader_new (kind_of p)) chunks fi = run_session (kind_of p) false chunks fi.
Proof. intros p chunks fi Hb. pose proof (rtu_parser p _ session_cancel_safe (rtu_stable p) chunks fi Hb) as H. destruct p; exact H. Qed.

Theorem ref_rtu_frames_app : forall r s1 s2 fi,
  ref_rtu_frames r (s1 ++ s2) fi =
  match ref_rtu_frames r s1 FinPending with
  | (fs1, EndPending) => (fs1 ++ fst (ref_rtu_frames r (rtu_tail r s1 ++ s2) fi), snd (ref_rtu_frames r (rtu_tail r s1 ++ s2) fi))
  | x => x
  end.
Proof.
  intros r. exact (frames_app (rcut r) (rcut_suffix r) (rcut_app r) (fun F s fi => rref F r s fi) (rref_S r)
                     (fun F s => rref_tail F r s) (fun _ => eq_refl) (rref_tail_S r)).
Qed.

Definition rtu_reader_represents (p : ptype) (r : reader) (t : list N) : Prop := rtu_represents p r t.

Theorem rtu_represents_fresh' : forall p, rtu_reader_represents p (reader_new (kind_of p)) [].
Proof.
  intros p. pose proof (rtu_parser p _ represents_fresh) as H. destruct p; exact H.
Qed.

Theorem rtu_run_represents' : forall p r t n fi, rtu_reader_represents p r t -> Forall bytes n ->
  run_reader (run_fuel r n) false r n fi = liftr (ref_rtu_frames (role_of p) (t ++ sbytes n) (sfin n fi)) /\
  snd (run_reader_st (run_fuel r n) r n fi) = liftr (ref_rtu_frames (role_of p) (t ++ sbytes n) (sfin n fi)).
Proof. intros p r t n fi Hrep Hb. exact (rtu_parser p _ run_represents_fuel (rref_fuel (role_of p)) r t n fi Hrep Hb). Qed.

Theorem rtu_represents_step' : forall p r t n r1 l1, rtu_reader_represents p r t -> Forall bytes n ->
  run_reader_st (run_fuel r n) r n FinPending = (r1, (l1, EndPending)) ->
  rtu_reader_represents p r1 (rtu_tail (role_of p) (t ++ sbytes n)) /\
  l1 = map IFrame (fst (ref_rtu_frames (role_of p) (t ++ sbytes n) FinPending)) /\
  snd (ref_rtu_frames (role_of p) (t ++ sbytes n) FinPending) = EndPending.
Proof.
  intros p r t n r1 l1 Hrep Hb E.
  exact (rtu_parser p _ represents_step (rtu_stable p) (rtu_tail (role_of p)) (rref_fuel (role_of p)) (rtu_ref_app (role_of p))
           r t n (run_fuel r n) r1 l1 Hrep Hb (run_fuel_enough r n) E).
Qed.

(* The RTU server across port re-opens: RtuServerTask keeps one reader for the life of the server *)
Lemma gres_is_reopen r : forall G F s fi,
  gres (fun F s fi => rref F r s fi) (fun F s => rref_after F r s) G F s fi = rref_reopen G F r s fi.
Proof.
  induction G as [|G IH]; intros F s fi; [reflexivity|]. cbn [gres rref_reopen].
  destruct (rref F r s fi) as [fs e]. destruct e; try reflexivity. now rewrite IH.
Qed.

Theorem rtu_reopen : forall p chunks fi, Forall bytes chunks ->
  run_session (kind_of p) true chunks fi =
  ref_rtu_reopen (role_of p) (fst (sched_stream chunks fi)) (snd (sched_stream chunks fi)).
Proof.
  intros p chunks fi Hb. rewrite sched_stream_eq. cbn [fst snd]. unfold run_session, ref_rtu_reopen.
  pose proof (sbytes_le chunks) as Hs.
  replace (reader_new (kind_of p)) with (rd rstate (PRtu p) Start buf_new) by (destruct p; reflexivity).
  set (G := run_fuel (rd rstate (PRtu p) Start buf_new) chunks).
  assert (HG : G = length (concat chunks) + 2) by reflexivity.
  rewrite (rtu_parser p _ run_resume_ref (fun F s => rref_after F (role_of p) s) (rafter_from p) (fun _ _ => eq_refl) (rtu_HA_none p) (rtu_HA_some p) (rtu_HA_err p)
             (rref_after_len (role_of p)) G buf_new chunks fi (S (length (sbytes chunks))) wf_new bytes_nil Hb)
    by (cbn [buf_new b_pend app]; lia).
  cbn [buf_new b_pend app].
  rewrite (gres_fuel (fun F s fi => rref F (role_of p) s fi) (fun F s => rref_after F (role_of p) s) (rref_after_len (role_of p)) G (S (length (sbytes chunks)))) by lia.
  apply gres_is_reopen.
Qed.

(* C06_gate across re-opens: whatever reaches the handler sits in the received stream with ITS OWN address and the correct CRC *)
Lemma reopen_gate r : forall G F s fi f, bytes s -> In (IFrame f) (fst (rref_reopen G F r s fi)) -> carries s f.
Proof.
  induction G as [|G IH]; intros F s fi f Hb; [intros []|]. cbn [rref_reopen].
  pose proof (rref_gate r F s fi Hb) as Hg. destruct (rref F r s fi) as [fs e]. cbn [fst] in Hg.
  assert (Hfs : In (IFrame f) (map IFrame fs) -> carries s f).
  { rewrite in_map_iff. intros (f' & Hf & Hin). inversion Hf; subst. now apply Hg. }
  destruct e; try (cbn [fst]; exact Hfs).
  destruct (rref_reopen G F r (rref_after F r s) fi) as [l e'] eqn:Er. cbn [fst].
  rewrite in_app_iff. intros [H|H]; [now apply Hfs|]. destruct H as [H|H]; [discriminate|].
  destruct (rref_after_suffix r F s) as [pre Hp].
  assert (Hb' : bytes (rref_after F r s)) by (rewrite Hp in Hb; unfold bytes in *; apply Forall_app in Hb; tauto).
  specialize (IH F (rref_after F r s) fi f Hb'). rewrite Er in IH. destruct (IH H) as (pre' & post & Hc).
  exists (pre ++ pre'), post. rewrite Hp at 1. rewrite Hc, <- app_assoc. reflexivity.
Qed.

