(* The C-ABI client (Model/FfiClient.v) composed with the verified client core:
   values cross the boundary unchanged (list.rs, iterator.rs); the C function against the Rust API
   (Model/ClientPaths.submit_via) and the generated statement order; the bytes on the wire are those of C03;
   what the C callback receives for a reply is what C04 says the client computes; every completion
   callback fires exactly once, composed with the task model (C10). *)
From Coq Require Import NArith List String Bool Arith Lia.
From Rodbus Require Import Base.Outcome Base.ClientTypes Model.Format Model.Range Model.ClientRequest Model.ClientPaths
  Model.ClientSession Spec.ClientCodecSpec Gen.Consts Gen.ClientTables Gen.SessionErrors Gen.FfiTables Model.Ffi Spec.FfiSpec
  Proofs.FfiProofs Model.FfiClient Proofs.ClientPathsProofs Proofs.ClientSessionProofs.
From Rodbus Require Import Proofs.ClientCodecProofs Proofs.ClientReplyProofs.
From Rodbus Require Model.ClientTask Proofs.C10Proofs.
Import ListNotations.
Module CT := Rodbus.Model.ClientTask.
Module P10 := Rodbus.Proofs.C10Proofs.
Local Open Scope N_scope.

Lemma fold_list_add {A} : forall (items acc : list A), fold_left list_add items acc = (acc ++ items)%list.
Proof.
  induction items as [|x items IH]; intros acc; cbn [fold_left].
  - rewrite app_nil_r. reflexivity.
  - rewrite IH. unfold list_add. rewrite <- app_assoc. reflexivity.
Qed.

(* rodbus_*_list_create, then one ..._list_add per element: the Vec holds exactly the elements, in order *)
Theorem list_of_adds_id : forall A (items : list A), list_of_adds items = items.
Proof. intros A items. unfold list_of_adds, list_create. apply fold_list_add. Qed.
Print Assumptions list_of_adds_id.

(* ..._iterator_next: the next element of the inner iterator, copied into `current`; the rest stays *)
Lemma vi_next_some : forall A (x : N * A) rest cur,
  vi_next {| vi_inner := x :: rest; vi_current := cur |} = Some (x, {| vi_inner := rest; vi_current := x |}).
Proof. intros A [i v] rest cur. reflexivity. Qed.

(* NULL exactly at the end *)
Lemma vi_next_null : forall A (it : value_iter A), vi_next it = None <-> vi_inner it = [].
Proof.
  intros A [inner cur]. unfold vi_next. cbn [vi_inner]. destruct inner as [|x rest]; split; intros H; try reflexivity; discriminate.
Qed.
Print Assumptions vi_next_null.

(* the k-th call of next returns the k-th element, the call after the last one returns NULL *)
Fixpoint vi_nth {A} (k : nat) (it : value_iter A) : option (N * A) :=
  match vi_next it with
  | None => None
  | Some (v, it') => match k with O => Some v | S k' => vi_nth k' it' end
  end.
Lemma vi_nth_spec : forall A (l : list (N * A)) cur k, vi_nth k {| vi_inner := l; vi_current := cur |} = nth_error l k.
Proof.
  intros A l. induction l as [|x rest IH]; intros cur k.
  - destruct k; reflexivity.
  - destruct k as [|k]; cbn [vi_nth]; rewrite vi_next_some; [reflexivity|]. cbn [nth_error]. apply IH.
Qed.

Lemma vi_drain_all : forall A (l : list (N * A)) cur fuel, (List.length l < fuel)%nat ->
  vi_drain fuel {| vi_inner := l; vi_current := cur |} = l.
Proof.
  intros A l. induction l as [|x rest IH]; intros cur fuel H.
  - destruct fuel; [inversion H|reflexivity].
  - destruct fuel as [|fuel]; [inversion H|]. cbn [vi_drain]. rewrite vi_next_some. f_equal. apply IH. cbn [List.length] in H. lia.
Qed.

(* the C callback's `while ((v = next(it)) != NULL)` loop reads exactly the values, in order *)
Theorem vi_all_id : forall A (l : list (N * A)) z, vi_all l z = l.
Proof. intros A l z. unfold vi_all, vi_new. apply vi_drain_all. lia. Qed.
Print Assumptions vi_all_id.

Theorem vi_next_in_order : forall A (l : list (N * A)) z k,
  vi_nth k (vi_new l z) = nth_error l k /\ (vi_nth k (vi_new l z) = None <-> (List.length l <= k)%nat).
Proof.
  intros A l z k. unfold vi_new. rewrite vi_nth_spec. split; [reflexivity|apply nth_error_None].
Qed.
Print Assumptions vi_next_in_order.

Theorem to_call_values :
  (forall s adds, to_call (CcWriteMultipleCoils s (Some adds)) = Some (CWriteMultipleCoils s adds)) /\
  (forall s adds, to_call (CcWriteMultipleRegisters s (Some adds)) = Some (CWriteMultipleRegisters s adds)) /\
  (forall cc, to_call cc = None <-> items_null cc = true).
Proof.
  repeat split; intros; cbn [to_call]; rewrite ?list_of_adds_id; try reflexivity.
  - destruct cc as [| | | | | |s [l|]|s [l|]]; try discriminate; reflexivity.
  - destruct cc as [| | | | | |s [l|]|s [l|]]; try discriminate; reflexivity.
Qed.
Print Assumptions to_call_values.

Lemma ft_of_in : forall cc, In (ft_of cc) future_types.
Proof. destruct cc; vm_compute; auto. Qed.
Lemma ft_of_ok : forall cc, shape_ok (ft_of cc).
Proof. intros cc. apply future_types_ok, ft_of_in. Qed.
Lemma steps_of_in : forall cc, In (c_name cc, steps_of cc) client_calls.
Proof.
  intros cc. unfold steps_of. destruct (find _ client_calls) as [[m st]|] eqn:E.
  - apply find_some in E as [Hin Hm]. apply String.eqb_eq in Hm. cbn [fst snd] in *. subst m. exact Hin.
  - destruct cc; discriminate E.
Qed.

Lemma steps_of_ok : forall cc, call_ok (c_name cc, steps_of cc).
Proof. intros cc. apply client_call_ok, steps_of_in. Qed.

Lemma to_call_not_null : forall cc c, to_call cc = Some c -> items_null cc = false.
Proof. intros cc c H. destruct cc as [| | | | | |s [l|]|s [l|]]; try reflexivity; discriminate. Qed.

Definition cc_is_read (cc : c_call) : bool :=
  match cc with
  | CcReadCoils _ _ | CcReadDiscreteInputs _ _ | CcReadHoldingRegisters _ _ | CcReadInputRegisters _ _ => true
  | _ => false
  end.
Definition cc_is_write_multiple (cc : c_call) : bool :=
  match cc with CcWriteMultipleCoils _ _ | CcWriteMultipleRegisters _ _ => true | _ => false end.
Lemma is_read_c_name : forall cc, is_read (c_name cc) = cc_is_read cc.
Proof. destruct cc; reflexivity. Qed.

(* try_from never answers CountTooLargeForType *)
(* how `build` of a read relates to the two checks the C function and FfiChannel perform *)
Lemma limited_count_cases : forall s n limit,
  match limited_count (s, n) limit with
  | inr r => try_from s n = inr (s, n) /\ r = (s, n)
  | inl e => (try_from s n = inl e /\ (e = CountOfZero \/ e = AddressOverflow)) \/
             (exists r, try_from s n = inr r) /\ e = CountTooLargeForType
  end.
Proof.
  intros s n limit. unfold limited_count. cbn [fst snd].
  destruct (try_from s n) as [e|r] eqn:E.
  - left. split; [reflexivity|]. eapply try_from_err; eassumption.
  - rewrite (try_from_inr s n r E). cbn [snd]. destruct (limit <? n); [right; split; [eexists; reflexivity|reflexivity]|split; reflexivity].
Qed.

Lemma write_multiple_from_cases {A} : forall s (l : list A),
  match write_multiple_from s l with
  | Ok _ => True
  | Err e => e = ECountTooBigForU16 \/ e = ECountOfZero \/ e = EAddressOverflow
  | Panic => False
  end.
Proof.
  intros s l. unfold write_multiple_from. destruct (65535 <? N.of_nat (List.length l)); [auto|].
  destruct (try_from s (N.of_nat (List.length l))) as [e|r] eqn:E; cbn [of_range obind]; [|exact I].
  destruct (try_from_err _ _ _ E) as [-> | ->]; cbn [of_range_err]; auto.
Qed.

(* the environment of a call whose request the Rust API can build *)
Lemma env_of_built : forall cc c r snd_ task_, to_call cc = Some c -> build c = Ok r ->
  passes_validation (env_of false cc snd_ task_) /\ over_limit (env_of false cc snd_ task_) = false.
Proof.
  intros cc c r snd_ task_ Hc Hb. unfold passes_validation, env_of. cbn [null_args failing_validation over_limit].
  rewrite (to_call_not_null cc c Hc). cbn [app].
  destruct cc as [s n|s n|s n|s n|i v|i v|s [l|]|s [l|]]; cbn [to_call] in Hc; try discriminate; injection Hc as <-;
    cbn [failing_step over_read_limit build] in *.
  1,2: unfold of_read_bits in *; pose proof (limited_count_cases s n max_read_coils_count) as L;
       destruct (limited_count (s, n) max_read_coils_count) as [e|r']; [discriminate|]; destruct L as [-> _]; auto.
  1,2: unfold of_read_registers in *; pose proof (limited_count_cases s n max_read_registers_count) as L;
       destruct (limited_count (s, n) max_read_registers_count) as [e|r']; [discriminate|]; destruct L as [-> _]; auto.
  1,2: auto.
  1,2: destruct (write_multiple_from s (list_of_adds l)) as [[rg vs]|e|]; [auto|discriminate|discriminate].
Qed.

(* A call the Rust API accepts: the C function queues the same request, returns what try_send allows and the C
   callback fires exactly once - with the first completion the client task produces, else Shutdown *)
Theorem c_submit_queued : forall cc c r snd_ task_, to_call cc = Some c -> build c = Ok r ->
  submit_via ViaFfi c = Queued r /\ submit_via ViaChannel c = Queued r /\
  c_function false cc snd_ task_ = expected (ft_of cc) (is_read (c_name cc)) (env_of false cc snd_ task_) /\
  c_function false cc snd_ task_ =
    match snd_ with
    | Accepted => (FPE_Ok, [fire (ft_of cc) (first_completion task_)])
    | QueueFull => (FPE_TooManyRequests, [OnFailure FRE_Shutdown])
    | ChannelClosed => (FPE_Shutdown, [OnFailure FRE_Shutdown])
    end.
Proof.
  intros cc c r snd_ task_ Hc Hb.
  rewrite !submit_via_spec, Hb. split; [reflexivity|]. split; [reflexivity|].
  destruct (env_of_built cc c r snd_ task_ Hc Hb) as [Hp Ho].
  assert (E : c_function false cc snd_ task_ = expected (ft_of cc) (is_read (c_name cc)) (env_of false cc snd_ task_)).
  { unfold c_function. apply (once_all (c_name cc, steps_of cc) (steps_of_ok cc) (ft_of cc) (ft_of_ok cc) _ Hp). }
  split; [exact E|]. rewrite E. unfold expected. rewrite Ho, andb_false_r. reflexivity.
Qed.
Print Assumptions c_submit_queued.

(* an error of a bind whose continuation cannot fail with it comes from the first computation *)
Lemma obind_Err {E A B} (x : outcome E A) (f : A -> outcome E B) e : (forall a, f a <> Err e) -> obind x f = Err e -> x = Err e.
Proof. intros Hf. destruct x; cbn [obind]; [intros H; destruct (Hf _ H)|intros [= ->]; reflexivity|discriminate]. Qed.

(* the two ways the C function itself can refuse a call with a non-null channel and list *)
Lemma c_function_validation : forall cc w snd_ task_, items_null cc = false -> failing_step cc = Some w ->
  In (Validate w) (steps_of cc) -> c_function false cc snd_ task_ = (validation_error w, []).
Proof.
  intros cc w snd_ task_ Hn Hw Hin. unfold c_function.
  destruct (param_error_no_callback (c_name cc, steps_of cc) (steps_of_ok cc) (ft_of cc) (env_of false cc snd_ task_)) as [_ H].
  apply H; [unfold env_of; cbn [null_args]; rewrite Hn; reflexivity|exact Hw|exact Hin].
Qed.

Lemma c_function_validated : forall cc snd_ task_, items_null cc = false -> failing_step cc = None ->
  c_function false cc snd_ task_ = expected (ft_of cc) (is_read (c_name cc)) (env_of false cc snd_ task_).
Proof.
  intros cc snd_ task_ Hn Hw. unfold c_function.
  apply (once_all (c_name cc, steps_of cc) (steps_of_ok cc) (ft_of cc) (ft_of_ok cc)).
  split; [unfold env_of; cbn [null_args]; rewrite Hn; reflexivity|exact Hw].
Qed.

Lemma rejection_of_channel : forall c e, rejection_of ViaChannel c e = {| rj_returned := Some e; rj_completion := None |}.
Proof. destruct c; reflexivity. Qed.

Lemma c_read_rejected : forall cc s n limit e snd_ task_,
  cc_is_read cc = true -> failing_step cc = (match try_from s n with inl _ => Some "AddressRange::try_from"%string | inr _ => None end) ->
  over_read_limit cc = (match try_from s n, limited_count (s, n) limit with inr _, inl _ => true | _, _ => false end) ->
  of_range (limited_count (s, n) limit) = Err e ->
  ((e = ECountOfZero \/ e = EAddressOverflow) /\ c_function false cc snd_ task_ = (FPE_InvalidRange, [])) \/
  (e = ECountTooLargeForType /\ c_function false cc snd_ task_ = (FPE_InvalidRange, [OnFailure FRE_Shutdown])).
Proof.
  intros cc s n limit e snd_ task_ Hr Hf Ho Hb.
  assert (Hn : items_null cc = false) by (destruct cc; try discriminate Hr; reflexivity).
  pose proof (limited_count_cases s n limit) as L.
  destruct (limited_count (s, n) limit) as [e0|r']; [|discriminate]. cbn [of_range] in Hb. injection Hb as <-.
  destruct L as [[Ht He]|[[r Ht] ->]].
  - left. split; [destruct He as [-> | ->]; auto|].
    rewrite Ht in Hf. rewrite (c_function_validation cc _ snd_ task_ Hn Hf); [reflexivity|].
    (* the generated steps of each read function contain that validation: a table lookup *)
    destruct cc; try discriminate Hr; vm_compute; auto.
  - right. split; [reflexivity|]. rewrite Ht in Hf, Ho.
    rewrite (c_function_validated cc snd_ task_ Hn Hf). unfold expected.
    rewrite is_read_c_name, Hr. unfold env_of at 1. cbn [over_limit]. rewrite Ho. reflexivity.
Qed.

Lemma c_write_multiple_rejected : forall cc A s (l : list A) e snd_ task_,
  items_null cc = false -> In (Validate "WriteMultiple::from") (steps_of cc) ->
  failing_step cc = (match write_multiple_from s l with Ok _ => None | _ => Some "WriteMultiple::from"%string end) ->
  write_multiple_from s l = Err e ->
  (e = ECountTooBigForU16 \/ e = ECountOfZero \/ e = EAddressOverflow) /\ c_function false cc snd_ task_ = (FPE_InvalidRequest, []).
Proof.
  intros cc A s l e snd_ task_ Hn Hin Hf Hb. pose proof (write_multiple_from_cases s l) as W. rewrite Hb in W, Hf.
  split; [exact W|]. rewrite (c_function_validation cc _ snd_ task_ Hn Hf Hin). reflexivity.
Qed.

(* A call the Rust API rejects (build c = Err e): the Channel API returns e, FfiChannel queues nothing, and the C function
   returns - whatever the queue or the task would do -
     reads, empty or overflowing range (caught by AddressRange::try_from in the C function):  InvalidRange, NO callback;
     reads above the Modbus limit (caught by FfiChannel's of_read_bits / of_read_registers, AFTER sfio_promise::wrap):
                                                                InvalidRange and EXACTLY ONE on_failure(Shutdown);
     write-multiple (caught by WriteMultiple::from in the C function):                        InvalidRequest, NO callback;
   and these are the only errors `build` can produce (single writes are never rejected). *)
Theorem c_submit_rejected : forall cc c e snd_ task_, to_call cc = Some c -> build c = Err e ->
  submit_via ViaChannel c = Rejected {| rj_returned := Some e; rj_completion := None |} /\
  submit_via ViaFfi c = Rejected (rejection_of ViaFfi c e) /\
  match cc with
  | CcReadCoils _ _ | CcReadDiscreteInputs _ _ | CcReadHoldingRegisters _ _ | CcReadInputRegisters _ _ =>
      ((e = ECountOfZero \/ e = EAddressOverflow) /\ c_function false cc snd_ task_ = (FPE_InvalidRange, [])) \/
      (e = ECountTooLargeForType /\ c_function false cc snd_ task_ = (FPE_InvalidRange, [OnFailure FRE_Shutdown]))
  | CcWriteMultipleCoils _ _ | CcWriteMultipleRegisters _ _ =>
      (e = ECountTooBigForU16 \/ e = ECountOfZero \/ e = EAddressOverflow) /\
      c_function false cc snd_ task_ = (FPE_InvalidRequest, [])
  | CcWriteSingleCoil _ _ | CcWriteSingleRegister _ _ => False
  end.
Proof.
  intros cc c e snd_ task_ Hc Hb.
  rewrite !submit_via_spec, Hb, rejection_of_channel. split; [reflexivity|]. split; [reflexivity|].
  destruct cc as [s n|s n|s n|s n|i v|i v|s [l|]|s [l|]]; cbn [to_call] in Hc; try discriminate; injection Hc as <-; cbn [build] in Hb.
  1,2: apply (c_read_rejected _ s n max_read_coils_count); try reflexivity; revert Hb; apply obind_Err; discriminate.
  1,2: apply (c_read_rejected _ s n max_read_registers_count); try reflexivity; revert Hb; apply obind_Err; discriminate.
  1,2: discriminate.
  (* write-multiple; `vm_compute; auto 10` looks the validation up in the generated steps *)
  - apply (c_write_multiple_rejected _ bool s (list_of_adds l)); [reflexivity|vm_compute; auto 10|reflexivity|].
    revert Hb. apply obind_Err. intros [rg vs]. discriminate.
  - apply (c_write_multiple_rejected _ N s (list_of_adds l)); [reflexivity|vm_compute; auto 10|reflexivity|].
    revert Hb. apply obind_Err. intros [rg vs]. discriminate.
Qed.
Print Assumptions c_submit_rejected.

(* The over-limit read. At the Rust level the two
   FfiChannel methods differ: read_bits checks the limit BEFORE it builds its promise (the closure is dropped uncalled),
   read_registers builds the promise first (its Drop calls the closure with Shutdown) - C03_rejection_signals. At the C level
   both end in exactly one on_failure(Shutdown): in the first case it is the dropped sfio promise that fires. *)
Theorem c_over_limit_exactly_one : forall cc c snd_ task_, to_call cc = Some c -> build c = Err ECountTooLargeForType ->
  c_function false cc snd_ task_ = (FPE_InvalidRange, [OnFailure FRE_Shutdown]) /\
  cc_is_read cc = true /\
  exists rj, submit_via ViaFfi c = Rejected rj /\ rj_returned rj = Some ECountTooLargeForType /\
    rj_completion rj = match cc with CcReadCoils _ _ | CcReadDiscreteInputs _ _ => None | _ => Some CShutdown end.
Proof.
  intros cc c snd_ task_ Hc Hb. destruct (c_submit_rejected cc c _ snd_ task_ Hc Hb) as (_ & Hf & H).
  assert (G : c_function false cc snd_ task_ = (FPE_InvalidRange, [OnFailure FRE_Shutdown]) /\ cc_is_read cc = true).
  { (* of the errors c_submit_rejected lists, only the over-limit branch of a read is ECountTooLargeForType *)
    destruct cc; try contradiction.
    1-4: destruct H as [[[E|E] _]|[_ H]]; [discriminate E|discriminate E|split; [exact H|reflexivity]].   (* reads *)
    all: destruct H as [[E|[E|E]] _]; discriminate E. }                                                   (* write-multiple *)
  destruct G as [G1 G2]. split; [exact G1|]. split; [exact G2|].
  eexists. split; [exact Hf|].
  destruct cc as [| | | | | |s [l|]|s [l|]]; try discriminate G2; cbn [to_call] in Hc; injection Hc as <-; split; reflexivity.
Qed.
Print Assumptions c_over_limit_exactly_one.

(* NULL arguments: NullParameter, no callback, nothing else happens *)
Theorem c_null : forall cc snd_ task_,
  c_function true cc snd_ task_ = (FPE_NullParameter, []) /\
  (items_null cc = true -> c_function false cc snd_ task_ = (FPE_NullParameter, [])).
Proof.
  intros cc snd_ task_. split.
  - unfold c_function.
    destruct (param_error_no_callback (c_name cc, steps_of cc) (steps_of_ok cc) (ft_of cc) (env_of true cc snd_ task_)) as [H _].
    apply H. unfold env_of. cbn [null_args app]. left. reflexivity.
  - intros Hn. destruct cc as [| | | | | |s [l|]|s [l|]]; try discriminate Hn; vm_compute; reflexivity.
Qed.
Print Assumptions c_null.

(* one call: whichever API submits it, the transport sees the protocol encoding of the call, or nothing *)
Theorem c_wire : forall cc c tx uid, to_call cc = Some c -> call_wf c ->
  path_wire ViaFfi Tcp tx uid c = path_wire ViaChannel Tcp tx uid c /\
  path_wire ViaFfi Tcp tx uid c = submit_wire Tcp tx uid c /\
  (within_limits c -> path_wire ViaFfi Tcp tx uid c = [ref_encode_tcp tx uid c]) /\
  (~ within_limits c -> path_wire ViaFfi Tcp tx uid c = []).
Proof.
  intros cc c tx uid _ Hwf. rewrite !path_wire_spec. split; [reflexivity|]. split; [reflexivity|].
  rewrite submit_wire_spec. pose proof (submit_spec Tcp tx uid c Hwf) as S.
  destruct (client_submit Tcp tx uid c) as [bs|e|]; [destruct S as [Hl ->]|destruct S as [Hl _]|destruct S];
    split; intros Hl'; (reflexivity || contradiction).
Qed.
Print Assumptions c_wire.

(* a sequence of C calls (unit id, call) on a connected channel, as Rust calls: a call with a NULL list returns
   NullParameter (c_null) and never reaches FfiChannel *)
Definition rust_calls (l : list (N * c_call)) : list (N * call) :=
  flat_map (fun x => match to_call (snd x) with Some c => [(fst x, c)] | None => [] end) l.
Definition via (p : path) (cs : list (N * call)) : list (path * N * call) := map (fun x => (p, fst x, snd x)) cs.

Lemma strip_via : forall p cs, strip (via p cs) = cs.
Proof.
  intros p cs. unfold strip, via. rewrite map_map. cbn [fst snd]. rewrite <- (map_id cs) at 2.
  apply map_ext. intros [u c]. reflexivity.
Qed.

(* from any point of a session on *)
Theorem c_session_wire_from : forall l k, Forall (fun x => call_wf (snd x)) (rust_calls l) ->
  session_wire Tcp (k mod 65536) (via ViaFfi (rust_calls l)) = ref_session_wire true k (rust_calls l) /\
  session_wire Tcp (k mod 65536) (via ViaFfi (rust_calls l)) = session_wire Tcp (k mod 65536) (via ViaChannel (rust_calls l)).
Proof.
  (* both logs are the Spec's log of the stripped calls, whichever API submits them *)
  intros l k Hwf.
  assert (R : forall p, session_wire Tcp (k mod 65536) (via p (rust_calls l)) = ref_session_wire true k (rust_calls l)).
  { intros p. rewrite session_wire_ref; [rewrite strip_via; reflexivity|].
    unfold via. rewrite Forall_map. cbn [snd]. exact Hwf. }
  rewrite !R. split; reflexivity.
Qed.
Print Assumptions c_session_wire_from.

(* the wire log of the session is the Spec's (frames of the calls within the limits, in order, the k-th request that reaches
   the task carrying transaction id k mod 65536) and is the log the Channel API would produce for the same calls *)
Theorem c_session_wire : forall l, Forall (fun x => call_wf (snd x)) (rust_calls l) ->
  session_wire Tcp 0 (via ViaFfi (rust_calls l)) = ref_session_wire true 0 (rust_calls l) /\
  session_wire Tcp 0 (via ViaFfi (rust_calls l)) = session_wire Tcp 0 (via ViaChannel (rust_calls l)).
Proof. intros l. exact (c_session_wire_from l 0). Qed.
Print Assumptions c_session_wire.

(* the k-th request reaching the task is stamped k mod 65536 *)
Theorem c_session_ids : forall k, CT.txid_next (k mod 65536) = ((k + 1) mod 65536, k mod 65536).
Proof. exact txid_next_mod. Qed.
Print Assumptions c_session_ids.

Theorem c_deliver_agrees : forall r pdu, request_wf r -> Forall is_u8 pdu ->
  c_deliver (deliver_via ViaFfi r pdu) = c_deliver (handle_response r pdu).
Proof. intros r pdu Hr Hp. cbn [deliver_via]. rewrite (handle_response_iter_eq r pdu Hr Hp). reflexivity. Qed.
Print Assumptions c_deliver_agrees.

(* success: the callback reads exactly the values the client core computed (C04), element by element; writes: on_complete(Nothing) *)
Theorem c_deliver_values : forall r pdu, request_wf r -> Forall is_u8 pdu ->
  (forall l, handle_response r pdu = Ok (RespBits l) -> c_deliver (deliver_via ViaFfi r pdu) = Some (CvBits l)) /\
  (forall l, handle_response r pdu = Ok (RespRegisters l) -> c_deliver (deliver_via ViaFfi r pdu) = Some (CvRegisters l)) /\
  (forall i v, handle_response r pdu = Ok (RespCoil i v) -> c_deliver (deliver_via ViaFfi r pdu) = Some CvNothing) /\
  (forall i v, handle_response r pdu = Ok (RespRegister i v) -> c_deliver (deliver_via ViaFfi r pdu) = Some CvNothing) /\
  (forall s n, handle_response r pdu = Ok (RespRange s n) -> c_deliver (deliver_via ViaFfi r pdu) = Some CvNothing).
Proof.
  intros r pdu Hr Hp. rewrite (c_deliver_agrees r pdu Hr Hp).
  repeat split.
  - intros l E. rewrite E. cbn [c_deliver]. now rewrite vi_all_id.
  - intros l E. rewrite E. cbn [c_deliver]. now rewrite vi_all_id.
  - intros i v E. now rewrite E.
  - intros i v E. now rewrite E.
  - intros s n E. now rewrite E.
Qed.
Print Assumptions c_deliver_values.

(* the name of a C-side error value against the Rust error it stands for *)
Definition ffi_error_same_named (e : rust_request_error) : bool :=
  match e with
  | RRE_Exception x => exception_name_ok (name_rust_exception_code x) (name_ffi_request_error (request_error_to_ffi e))
  | _ => request_error_name_ok (name_rust_request_error e) (name_ffi_request_error (request_error_to_ffi e))
  end.

(* failure: on_failure with the same-named counterpart of the error class, never Ok; and never a panic *)
Theorem c_deliver_error : forall r pdu e, request_wf r -> Forall is_u8 pdu -> handle_response r pdu = Err e ->
  c_deliver (deliver_via ViaFfi r pdu) = Some (CvFailure (request_error_to_ffi (class_of_codec e))) /\
  ffi_error_same_named (class_of_codec e) = true /\
  request_error_to_ffi (class_of_codec e) <> FRE_Ok.
Proof.
  intros r pdu e Hr Hp H. rewrite (c_deliver_agrees r pdu Hr Hp), H.
  split; [reflexivity|]. split; [apply names_request_error|apply request_error_never_ok].
Qed.
Print Assumptions c_deliver_error.

Theorem c_deliver_total : forall r pdu, request_wf r -> Forall is_u8 pdu -> c_deliver (deliver_via ViaFfi r pdu) <> None.
Proof.
  intros r pdu Hr Hp. rewrite (c_deliver_agrees r pdu Hr Hp). pose proof (response_total r pdu Hr) as T.
  destruct (handle_response r pdu) as [[]|e|]; cbn [c_deliver]; try discriminate. contradiction.
Qed.
Print Assumptions c_deliver_total.

(* the two generated exception tables (rodbus exception.rs as read for the client core / for the C ABI) agree *)
Lemma exception_tables_agree : forall b, exception_from_u8 (u8_of_excode (excode_of_u8 b)) = exception_from_u8 b.
Proof. intros b. rewrite excode_roundtrip. reflexivity. Qed.
Print Assumptions exception_tables_agree.
Lemma exception_tables_same_names : forall ex, name_rust_exception_code (exception_from_u8 (u8_of_excode ex)) =
  match ex with
  | ExIllegalFunction => "IllegalFunction" | ExIllegalDataAddress => "IllegalDataAddress" | ExIllegalDataValue => "IllegalDataValue"
  | ExServerDeviceFailure => "ServerDeviceFailure" | ExAcknowledge => "Acknowledge" | ExServerDeviceBusy => "ServerDeviceBusy"
  | ExMemoryParityError => "MemoryParityError" | ExGatewayPathUnavailable => "GatewayPathUnavailable"
  | ExGatewayTargetDeviceFailedToRespond => "GatewayTargetDeviceFailedToRespond"
  | ExUnknown v => name_rust_exception_code (exception_from_u8 v)
  end%string.
Proof. destruct ex; reflexivity. Qed.

Lemma reply_fc_small : forall r, reply_fc r + 128 < 256.
Proof. destruct r; cbn [reply_fc]; lia. Qed.

(* all 256 exception codes: an exception reply with code b reaches the C callback as ModbusException<standard name of b> *)
Theorem c_deliver_exception_bytes : forall r b, request_wf r -> b < 256 ->
  c_deliver (deliver_via ViaFfi r [reply_fc r + 128; b]) =
    Some (CvFailure (request_error_to_ffi (RRE_Exception (exception_from_u8 b)))) /\
  name_ffi_request_error (request_error_to_ffi (RRE_Exception (exception_from_u8 b))) =
    ("ModbusException" ++ standard_exception_name b)%string.
Proof.
  intros r b Hr Hb.
  assert (Hp : Forall is_u8 [reply_fc r + 128; b]).
  { repeat constructor; unfold is_u8; [apply reply_fc_small|exact Hb]. }
  destruct (c_deliver_error r _ _ Hr Hp (exception_reply r b)) as (H & _ & _).
  rewrite H. cbn [class_of_codec]. rewrite exception_tables_agree. split; [reflexivity|].
  exact (proj1 (proj2 (exception_bytes b))).
Qed.
Print Assumptions c_deliver_exception_bytes.

(* the task-level error classes (C10's OComplete results) as C values: same-named, never Ok, class preserved *)
Theorem class_of_task_names : forall e ex,
  ffi_error_same_named (class_of_task e ex) = true /\
  request_error_to_ffi (class_of_task e ex) <> FRE_Ok /\
  name_rust_request_error (class_of_task e ex) =
    match e with
    | ReIo => "Io" | ReException => "Exception" | ReBadRequest => "BadRequest" | ReBadFrame => "BadFrame"
    | ReBadResponse => "BadResponse" | ReInternal => "Internal" | ReResponseTimeout => "ResponseTimeout"
    | ReNoConnection => "NoConnection" | ReShutdown => "Shutdown"
    end%string.
Proof.
  intros e ex. split; [apply names_request_error|]. split; [apply request_error_never_ok|]. destruct e; reflexivity.
Qed.
Print Assumptions class_of_task_names.

(* the results the task produces for request `id`, and the C callback invocation each one stands for *)
Definition results_of (outs : list CT.output) (id : nat) : list CT.result :=
  flat_map (fun o => match o with CT.OComplete i res => if Nat.eqb i id then [res] else [] | _ => [] end) outs.
Definition cb_of (ex : rust_exception_code) (res : CT.result) : cb_event :=
  match res with CT.ROk => OnComplete | CT.RErr e => OnFailure (request_error_to_ffi (class_of_task e ex)) end.

Lemma cb_of_known : forall ex res, cb_of ex res <> ShapeUnknown.
Proof. intros ex [|e]; discriminate. Qed.

Lemma c_callbacks_map : forall ft kind ex outs id, shape_ok ft -> promise_drop_error kind = Some RRE_Shutdown ->
  c_callbacks ft kind ex outs id = map (cb_of ex) (results_of outs id).
Proof.
  intros ft kind ex outs id Hft Hk. unfold c_callbacks, results_of.
  induction outs as [|o outs IH]; [reflexivity|]. cbn [flat_map]. rewrite map_app, IH. f_equal.
  destruct o as [i res| | | | | |]; try reflexivity. destruct (Nat.eqb i id); [|reflexivity].
  rewrite (run_task_once ft kind _ Hft Hk). cbn [first_completion map]. rewrite (fire_ok ft _ Hft).
  destruct res; reflexivity.
Qed.

Lemma results_length : forall outs id, List.length (results_of outs id) = count_occ Nat.eq_dec (CT.completed outs) id.
Proof.
  intros outs id. unfold results_of, CT.completed. induction outs as [|o outs IH]; [reflexivity|].
  cbn [flat_map]. rewrite app_length, count_occ_app, IH. f_equal.
  destruct o as [i res| | | | | |]; try reflexivity. cbn [count_occ].
  destruct (Nat.eq_dec i id) as [->|Hne]; [rewrite Nat.eqb_refl; reflexivity|].
  apply Nat.eqb_neq in Hne. rewrite Hne. reflexivity.
Qed.

Lemma results_in : forall outs id res, In res (results_of outs id) -> In (CT.OComplete id res) outs.
Proof.
  intros outs id res. unfold results_of. rewrite in_flat_map. intros (o & Ho & H).
  destruct o as [i r| | | | | |]; try contradiction. destruct (Nat.eqb i id) eqn:E; [|contradiction].
  apply Nat.eqb_eq in E. subst i. destruct H as [->|[]]. exact Ho.
Qed.

Lemma c_callbacks_of_completed : forall ft kind ex outs id, shape_ok ft -> promise_drop_error kind = Some RRE_Shutdown ->
  NoDup (CT.completed outs) ->
  (In id (CT.completed outs) ->
     exists ev, c_callbacks ft kind ex outs id = [ev] /\ ev <> ShapeUnknown /\
                exists res, In (CT.OComplete id res) outs /\ ev = cb_of ex res) /\
  (~ In id (CT.completed outs) -> c_callbacks ft kind ex outs id = []).
Proof.
  intros ft kind ex outs id Hft Hk Hnd. rewrite (c_callbacks_map ft kind ex outs id Hft Hk).
  pose proof (results_length outs id) as L. split; intros Hin.
  - rewrite (proj1 (NoDup_count_occ' Nat.eq_dec (CT.completed outs)) Hnd id Hin) in L.
    destruct (results_of outs id) as [|res [|res' rest]] eqn:E; try discriminate L.
    exists (cb_of ex res). split; [reflexivity|]. split; [apply cb_of_known|].
    exists res. split; [|reflexivity]. apply results_in. rewrite E. left. reflexivity.
  - apply (count_occ_not_In Nat.eq_dec) in Hin. rewrite Hin in L.
    destruct (results_of outs id); [reflexivity|discriminate L].
Qed.

(* whatever the interleaving of submissions, task steps, replies, faults, shutdown and abort: the C completion callback of a
   request never fires twice *)
Theorem c_once_at_most : forall ft kind ex cfg hn mt rmin rmax es,
  shape_ok ft -> promise_drop_error kind = Some RRE_Shutdown ->
  NoDup (P10.all_accepted cfg (CT.init hn mt rmin rmax) es) ->
  forall id, (List.length (c_callbacks ft kind ex (snd (CT.run cfg (CT.init hn mt rmin rmax) es)) id) <= 1)%nat.
Proof.
  intros ft kind ex cfg hn mt rmin rmax es Hft Hk Hnd id.
  rewrite (c_callbacks_map ft kind ex _ id Hft Hk), map_length, results_length.
  apply NoDup_count_occ. exact (proj1 (P10.exactly_once cfg hn mt rmin rmax es Hnd)).
Qed.
Print Assumptions c_once_at_most.

(* once nothing is pending, every accepted request's callback has fired exactly once - with the same-named counterpart of the
   task's result - and no other callback has fired *)
Theorem c_once_terminal : forall ft kind ex cfg hn mt rmin rmax es,
  shape_ok ft -> promise_drop_error kind = Some RRE_Shutdown ->
  NoDup (P10.all_accepted cfg (CT.init hn mt rmin rmax) es) ->
  CT.pending (fst (CT.run cfg (CT.init hn mt rmin rmax) es)) = [] ->
  forall id,
    (In id (P10.all_accepted cfg (CT.init hn mt rmin rmax) es) ->
       exists ev, c_callbacks ft kind ex (snd (CT.run cfg (CT.init hn mt rmin rmax) es)) id = [ev] /\ ev <> ShapeUnknown /\
                  exists res, In (CT.OComplete id res) (snd (CT.run cfg (CT.init hn mt rmin rmax) es)) /\ ev = cb_of ex res) /\
    (~ In id (P10.all_accepted cfg (CT.init hn mt rmin rmax) es) ->
       c_callbacks ft kind ex (snd (CT.run cfg (CT.init hn mt rmin rmax) es)) id = []).
Proof.
  intros ft kind ex cfg hn mt rmin rmax es Hft Hk Hnd Hp id.
  destruct (P10.terminal cfg hn mt rmin rmax es Hnd) as [T _]. specialize (T Hp id).
  destruct (c_callbacks_of_completed ft kind ex (snd (CT.run cfg (CT.init hn mt rmin rmax) es)) id Hft Hk
              (proj1 (P10.exactly_once cfg hn mt rmin rmax es Hnd))) as [H1 H2].
  split; intros Hin; [apply H1, T, Hin|apply H2; intros Hc; apply Hin, T, Hc].
Qed.
Print Assumptions c_once_terminal.

(* in particular after the task has terminated or was aborted *)
Theorem c_once_done : forall ft kind ex cfg hn mt rmin rmax es,
  shape_ok ft -> promise_drop_error kind = Some RRE_Shutdown ->
  NoDup (P10.all_accepted cfg (CT.init hn mt rmin rmax) es) ->
  CT.ph (fst (CT.run cfg (CT.init hn mt rmin rmax) es)) = CT.PDone ->
  forall id,
    (In id (P10.all_accepted cfg (CT.init hn mt rmin rmax) es) ->
       exists ev, c_callbacks ft kind ex (snd (CT.run cfg (CT.init hn mt rmin rmax) es)) id = [ev] /\ ev <> ShapeUnknown /\
                  exists res, In (CT.OComplete id res) (snd (CT.run cfg (CT.init hn mt rmin rmax) es)) /\ ev = cb_of ex res) /\
    (~ In id (P10.all_accepted cfg (CT.init hn mt rmin rmax) es) ->
       c_callbacks ft kind ex (snd (CT.run cfg (CT.init hn mt rmin rmax) es)) id = []).
Proof.
  intros ft kind ex cfg hn mt rmin rmax es Hft Hk Hnd Hd.
  apply c_once_terminal; try assumption.
  destruct (P10.terminal cfg hn mt rmin rmax es Hnd) as [_ T]. exact (T Hd).
Qed.
Print Assumptions c_once_done.

(* while the task is running: a callback that has not fired belongs to a request that is still pending (never lost), and a
   callback only fires for a request that was submitted *)
Theorem c_once_accounted : forall ft kind ex cfg hn mt rmin rmax es,
  shape_ok ft -> promise_drop_error kind = Some RRE_Shutdown ->
  NoDup (P10.all_accepted cfg (CT.init hn mt rmin rmax) es) ->
  forall id,
    (In id (P10.all_accepted cfg (CT.init hn mt rmin rmax) es) ->
       (exists ev, c_callbacks ft kind ex (snd (CT.run cfg (CT.init hn mt rmin rmax) es)) id = [ev] /\ ev <> ShapeUnknown) \/
       (c_callbacks ft kind ex (snd (CT.run cfg (CT.init hn mt rmin rmax) es)) id = [] /\
        In id (CT.pending (fst (CT.run cfg (CT.init hn mt rmin rmax) es))))) /\
    (~ In id (P10.all_accepted cfg (CT.init hn mt rmin rmax) es) ->
       c_callbacks ft kind ex (snd (CT.run cfg (CT.init hn mt rmin rmax) es)) id = []).
Proof.
  intros ft kind ex cfg hn mt rmin rmax es Hft Hk Hnd id.
  destruct (c_callbacks_of_completed ft kind ex (snd (CT.run cfg (CT.init hn mt rmin rmax) es)) id Hft Hk
              (proj1 (P10.exactly_once cfg hn mt rmin rmax es Hnd))) as [H1 H2].
  split; intros Hin.
  - destruct (in_dec Nat.eq_dec id (CT.completed (snd (CT.run cfg (CT.init hn mt rmin rmax) es)))) as [Hc|Hc].
    + left. destruct (H1 Hc) as (ev & E & K & _). exists ev. auto.
    + right. split; [apply H2, Hc|]. destruct (proj1 (proj2 (P10.exactly_once cfg hn mt rmin rmax es Hnd)) id Hin) as [?|?]; [contradiction|assumption].
  - apply H2. intros Hc. apply Hin. exact (proj1 (proj2 (proj2 (P10.exactly_once cfg hn mt rmin rmax es Hnd))) id Hc).
Qed.
Print Assumptions c_once_accounted.

(* the hypotheses on ft and kind hold for everything the generator found *)
Lemma c_once_hypotheses :
  (forall cc, shape_ok (ft_of cc)) /\ (forall ft, In ft future_types -> shape_ok ft) /\
  (forall cc, promise_drop_error (promise_kind (channel_method_of (c_name cc))) = Some RRE_Shutdown).
Proof. split; [exact ft_of_ok|]. split; [exact future_types_ok|]. destruct cc; reflexivity. Qed.
Print Assumptions c_once_hypotheses.

(* over-limit read of coils (FfiChannel::read_bits rejects BEFORE its promise exists) and of registers (AFTER): one callback each *)
Example ex_read_2001_coils :
  c_function false (CcReadCoils 0 2001) Accepted [TComplete ROk] = (FPE_InvalidRange, [OnFailure FRE_Shutdown]) /\
  submit_via ViaFfi (CReadCoils 0 2001) = Rejected {| rj_returned := Some ECountTooLargeForType; rj_completion := None |}.
Proof. vm_compute. split; reflexivity. Qed.
Example ex_read_126_registers :
  c_function false (CcReadHoldingRegisters 0 126) QueueFull [] = (FPE_InvalidRange, [OnFailure FRE_Shutdown]) /\
  submit_via ViaFfi (CReadHoldingRegisters 0 126) = Rejected {| rj_returned := Some ECountTooLargeForType; rj_completion := Some CShutdown |}.
Proof. vm_compute. split; reflexivity. Qed.
(* empty / overflowing range: caught by the C function, no callback *)
Example ex_read_0 : c_function false (CcReadDiscreteInputs 7 0) Accepted [TComplete ROk] = (FPE_InvalidRange, []).
Proof. vm_compute. reflexivity. Qed.
Example ex_read_overflow : c_function false (CcReadInputRegisters 65535 2) Accepted [] = (FPE_InvalidRange, []).
Proof. vm_compute. reflexivity. Qed.
(* write-multiple: NULL list, empty list, accepted list *)
Example ex_write_null : c_function false (CcWriteMultipleRegisters 5 None) Accepted [TComplete ROk] = (FPE_NullParameter, []) /\
                        c_function true (CcWriteSingleCoil 5 true) Accepted [TComplete ROk] = (FPE_NullParameter, []).
Proof. vm_compute. split; reflexivity. Qed.
Example ex_write_empty : c_function false (CcWriteMultipleCoils 5 (Some [])) Accepted [TComplete ROk] = (FPE_InvalidRequest, []).
Proof. vm_compute. reflexivity. Qed.
Example ex_write_accepted :
  c_function false (CcWriteMultipleCoils 3 (Some [true; false; true])) Accepted [TComplete ROk; TComplete (RErr RRE_Io)] = (FPE_Ok, [OnComplete]) /\
  to_call (CcWriteMultipleCoils 3 (Some [true; false; true])) = Some (CWriteMultipleCoils 3 [true; false; true]).
Proof. vm_compute. split; reflexivity. Qed.
(* accepted read completing with an exception; accepted and never completed; queue full; channel shut down *)
Example ex_read_exception :
  c_function false (CcReadHoldingRegisters 0 10) Accepted [TComplete (RErr (RRE_Exception (exception_from_u8 2)))]
  = (FPE_Ok, [OnFailure FRE_ModbusExceptionIllegalDataAddress]).
Proof. vm_compute. reflexivity. Qed.
Example ex_read_dropped : c_function false (CcReadCoils 0 10) Accepted [] = (FPE_Ok, [OnFailure FRE_Shutdown]).
Proof. vm_compute. reflexivity. Qed.
Example ex_queue_full : c_function false (CcWriteSingleRegister 1 2) QueueFull [TComplete ROk] = (FPE_TooManyRequests, [OnFailure FRE_Shutdown]).
Proof. vm_compute. reflexivity. Qed.
Example ex_closed : c_function false (CcReadCoils 0 10) ChannelClosed [] = (FPE_Shutdown, [OnFailure FRE_Shutdown]).
Proof. vm_compute. reflexivity. Qed.

Example ex_vi_all : vi_all [(10, true); (11, false); (12, true); (13, true); (14, false); (15, false); (16, true); (17, true); (18, false)] false
  = [(10, true); (11, false); (12, true); (13, true); (14, false); (15, false); (16, true); (17, true); (18, false)].
Proof. vm_compute. reflexivity. Qed.
Example ex_list_of_adds : list_of_adds [1; 258; 65535] = [1; 258; 65535].
Proof. vm_compute. reflexivity. Qed.

(* a session of C calls: read (id 0), NULL list (NullParameter: not a request), 2001 coils (rejected by FfiChannel: no id),
   write two registers (id 1) *)
Example ex_session :
  session_wire Tcp 0 (via ViaFfi (rust_calls [(1, CcReadHoldingRegisters 16 2); (1, CcWriteMultipleCoils 0 None); (1, CcReadCoils 0 2001);
                                              (9, CcWriteMultipleRegisters 7 (Some [1; 258]))]))
  = [[0;0; 0;0; 0;6; 1; 3; 0;16; 0;2]; [0;1; 0;0; 0;11; 9; 16; 0;7; 0;2; 4; 0;1; 1;2]].
Proof. vm_compute. reflexivity. Qed.

(* replies as the C callback sees them *)
Example ex_deliver_registers : c_deliver (deliver_via ViaFfi (RReadHoldingRegisters (16, 2)) [3; 4; 0; 10; 1; 2]) = Some (CvRegisters [(16, 10); (17, 258)]).
Proof. vm_compute. reflexivity. Qed.
Example ex_deliver_bits : c_deliver (deliver_via ViaFfi (RReadCoils (19, 3)) [1; 1; 5]) = Some (CvBits [(19, true); (20, false); (21, true)]).
Proof. vm_compute. reflexivity. Qed.
Example ex_deliver_write : c_deliver (deliver_via ViaFfi (RWriteMultipleRegisters (1, 2) [10; 258]) [16; 0; 1; 0; 2]) = Some CvNothing.
Proof. vm_compute. reflexivity. Qed.
Example ex_deliver_exception : c_deliver (deliver_via ViaFfi (RReadCoils (19, 3)) [129; 11]) = Some (CvFailure FRE_ModbusExceptionGatewayTargetDeviceFailedToRespond) /\
                               c_deliver (deliver_via ViaFfi (RReadCoils (19, 3)) [129; 7]) = Some (CvFailure FRE_ModbusExceptionUnknown).
Proof. vm_compute. split; reflexivity. Qed.
Example ex_deliver_bad : c_deliver (deliver_via ViaFfi (RReadCoils (19, 3)) [1; 1; 5; 0]) = Some (CvFailure FRE_BadResponse).
Proof. vm_compute. reflexivity. Qed.

(* the run of C10_nonvacuous (Properties/C10.v): requests 3 and 4 are submitted through the C ABI (SFfi); request 3 is queued
   behind a shutdown, request 4 is submitted after the task is gone: each callback fires exactly once, with Shutdown;
   request 1 completed normally; id 5 was never submitted *)
Definition nonvacuous_run : CT.state * list CT.output :=
  let cfg := {| CT.cfg_cap := 4; CT.cfg_res := 1 |} in
  let rq i := CT.CReq {| CT.rq_id := i; CT.rq_kind := CT.KRead; CT.rq_timeout := 100 |} in
  CT.run cfg (CT.init 1 None 5 9)
    [CT.EvSubmit CT.CEnable CT.SFuture; CT.EvRecv; CT.EvConnect true; CT.EvSubmit (rq 1%nat) CT.SFuture; CT.EvRecv;
     CT.EvSubmit CT.CShutdown CT.SFuture; CT.EvSubmit (rq 2%nat) CT.SCallback; CT.EvSubmit (rq 3%nat) CT.SFfi;
     CT.EvFrame 0 CT.RpGenuine; CT.EvRecv; CT.EvSubmit (rq 4%nat) CT.SFfi].
Example ex_callbacks :
  map (c_callbacks (ft_of (CcReadCoils 0 1)) "read_bits" REC_IllegalFunction (snd nonvacuous_run)) [1; 2; 3; 4; 5]%nat
  = [[OnComplete]; [OnFailure FRE_Shutdown]; [OnFailure FRE_Shutdown]; [OnFailure FRE_Shutdown]; []] /\
  CT.ph (fst nonvacuous_run) = CT.PDone.
Proof. vm_compute. split; reflexivity. Qed.
