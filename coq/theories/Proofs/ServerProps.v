(* C02 (handler calls), C08 (authorization) and C17 (multi-drop) shown of the reference server
   (Spec/Modbus.v); Properties/ transports each to the model of the code through
   handle_frame_refines / session_refines. *)
From Coq Require Import NArith List Lia.
From Rodbus Require Import Base.Outcome Base.ServerTypes Model.Server Gen.AuthzTable Spec.Modbus Proofs.ServerProofs.
Import ListNotations.
Local Open Scope N_scope.

Definition reply_of {A B C} (x : A * B * C) : A := fst (fst x).
Definition units_of {A B C} (x : A * B * C) : B := snd (fst x).
Definition log_of {A B C} (x : A * B * C) : C := snd x.

Lemma lift3_reply {A B C} (x : A * B * C) : reply_of (lift3 x) = Ok (reply_of x).
Proof. destruct x as [[a b] c]. reflexivity. Qed.
Lemma lift3_units {A B C} (x : A * B * C) : units_of (lift3 x) = units_of x.
Proof. destruct x as [[a b] c]. reflexivity. Qed.
Lemma lift3_log {A B C} (x : A * B * C) : log_of (lift3 x) = log_of x.
Proof. destruct x as [[a b] c]. reflexivity. Qed.

Lemma handler_events_app l1 l2 : handler_events (l1 ++ l2) = handler_events l1 ++ handler_events l2.
Proof. apply filter_app. Qed.
Lemma auth_events_app l1 l2 : auth_events (l1 ++ l2) = auth_events l1 ++ auth_events l2.
Proof. apply filter_app. Qed.

Section Props.
Context {St : Type}.
Variable H : handler St.

Definition no_auth (l : list event) : Prop := Forall (fun e => is_auth_event e = false) l.

Lemma no_auth_handler_events l : no_auth l -> handler_events l = l.
Proof.
  induction 1 as [|e l He _ IH]; [reflexivity|]. unfold handler_events in *. cbn [filter]. rewrite He. cbn [negb]. f_equal. exact IH.
Qed.
Lemma no_auth_auth_events l : no_auth l -> auth_events l = [].
Proof.
  induction 1 as [|e l He _ IH]; [reflexivity|]. unfold auth_events in *. cbn [filter]. rewrite He. exact IH.
Qed.

(* what a read loop logs: one call of `mk` per address, in the range it was asked for *)
Lemma read_seq_addresses {A} (get : N -> A + N) mk : forall n a e, In e (snd (read_seq get mk a n)) ->
  exists i, (i < n)%nat /\ e = mk (a + N.of_nat i).
Proof.
  induction n as [|n IH]; intros a e; cbn [read_seq]; [intros []|].
  destruct (get a).
  - specialize (IH (a + 1) e). destruct (read_seq get mk (a + 1) n) as [r lg]. cbn [snd] in *.
    intros [<-|Hin].
    + exists 0%nat. split; [lia|]. f_equal. lia.
    + destruct (IH Hin) as (i & Hi & ->). exists (S i). split; [lia|]. f_equal. lia.
  - cbn [snd]. intros [<-|[]]. exists 0%nat. split; [lia|]. f_equal. lia.
Qed.

Lemma read_seq_no_auth {A} (get : N -> A + N) mk : (forall a, is_auth_event (mk a) = false) ->
  forall n a, no_auth (snd (read_seq get mk a n)).
Proof. intros Hmk n a. apply Forall_forall. intros e Hin. destruct (read_seq_addresses get mk n a e Hin) as (i & _ & ->). apply Hmk. Qed.

Lemma write_call_no_auth u r : no_auth (write_call u r).
Proof. destruct r; repeat constructor. Qed.

Lemma read_calls_no_auth u st r : no_auth (read_calls H u st r).
Proof. destruct r; cbn [read_calls]; try constructor; apply read_seq_no_auth; reflexivity. Qed.

Lemma authorize_log a u r : handler_events (snd (authorize a u r)) = [] /\
  auth_events (snd (authorize a u r)) = snd (authorize a u r).
Proof. destruct a; split; reflexivity. Qed.

Lemma ref_exec_log fc u st r :
  log_of (ref_exec H fc u st r) = if is_write r then write_call u r else read_calls H u st r.
Proof.
  destruct r; cbn [ref_exec is_write kind_of kind_is_read negb read_calls]; unfold log_of;
    try (destruct (read_seq _ _ _ _) as [[vs|ex] lg]; reflexivity);
    destruct (apply_write H st _) as [st' res]; reflexivity.
Qed.

Lemma ref_exec_read_state fc u st r : is_write r = false -> fst (fst (ref_exec H fc u st r)) = st.
Proof.
  destruct r; cbn [is_write kind_of kind_is_read negb]; try discriminate; intros _; cbn [ref_exec];
    destruct (read_seq _ _ _ _) as [[vs|ex] lg]; reflexivity.
Qed.

(* the store after a broadcast write: the unit ids in ascending order, each applying the write to the
   handler object it maps to, on the state left by the previous ones *)
Definition broadcast_store (r : request) (m : list (N * N)) (g : N -> St) : N -> St :=
  fold_left (fun g uh => sset g (snd uh) (fst (apply_write H (g (snd uh)) r))) m g.
Lemma apply_all_spec r : forall m g,
  apply_all H m g r = (broadcast_store r m g, flat_map (fun uh => write_call (snd uh) r) m).
Proof.
  induction m as [|[u h] rest IH]; intros g; [reflexivity|]. cbn [apply_all broadcast_store fold_left flat_map snd]. now rewrite IH.
Qed.

Lemma flat_map_no_auth (m : list (N * N)) r : no_auth (flat_map (fun uh : N * N => write_call (snd uh) r) m).
Proof. induction m; cbn [flat_map]; [constructor|]. apply Forall_app. split; [apply write_call_no_auth|assumption]. Qed.

Lemma sset_same (g : N -> St) h k : sset g h (g h) k = g k.
Proof. unfold sset. destruct (N.eqb_spec k h) as [->|]; reflexivity. Qed.

(* ref_handle_frame on a well-formed, permitted request, by destination *)
Lemma ref_unit l a units fr fc r u : decode (f_pdu fr) = Valid fc r -> f_dest fr = DUnit u -> fst (authorize a u r) = true ->
  ref_handle_frame H l a units fr =
    match lookup u (u_map units) with
    | None => ([], units, snd (authorize a u r))
    | Some h => let '(st', pdu, log) := ref_exec H fc h (u_store units h) r in
                (adu l (f_tx fr) u pdu, with_store units (sset (u_store units) h st'), snd (authorize a u r) ++ log)
    end.
Proof.
  intros Hd Ed Ha. unfold ref_handle_frame. rewrite Hd, Ed. cbn [dest_value].
  destruct (authorize a u r) as [ok alog]. cbn [fst snd] in *. subst ok. reflexivity.
Qed.

Lemma ref_broadcast l a units fr fc r : decode (f_pdu fr) = Valid fc r -> f_dest fr = DBroadcast -> fst (authorize a 0 r) = true ->
  ref_handle_frame H l a units fr =
    if is_write r then let '(g', log) := apply_all H (u_map units) (u_store units) r in
                       ([], with_store units g', snd (authorize a 0 r) ++ log)
    else ([], units, snd (authorize a 0 r)).
Proof.
  intros Hd Ed Ha. unfold ref_handle_frame. rewrite Hd, Ed. cbn [dest_value].
  destruct (authorize a 0 r) as [ok alog]. cbn [fst snd] in *. subst ok. reflexivity.
Qed.

Lemma spec_calls_no_auth a units fr : no_auth (spec_calls H a units fr).
Proof.
  unfold spec_calls. destruct (decode (f_pdu fr)) as [| | |fc r]; try constructor.
  destruct (fst (authorize a (dest_value (f_dest fr)) r)); [|constructor].
  destruct (f_dest fr) as [u|].
  - destruct (lookup u (u_map units)) as [h|]; [|constructor].
    destruct (is_write r); [apply write_call_no_auth|apply read_calls_no_auth].
  - destruct (is_write r); [apply flat_map_no_auth|constructor].
Qed.

(* everything the application sees while one frame is handled: the authorization query of a
   well-formed request, then exactly the handler calls spec_calls allows *)
Lemma ref_log l a units fr :
  log_of (ref_handle_frame H l a units fr) =
    match decode (f_pdu fr) with Valid _ r => snd (authorize a (dest_value (f_dest fr)) r) | _ => [] end
    ++ spec_calls H a units fr.
Proof.
  unfold ref_handle_frame, spec_calls, log_of. destruct (decode (f_pdu fr)) as [| | |fc r]; try reflexivity.
  destruct (authorize a (dest_value (f_dest fr)) r) as [[|] alog]; cbn [fst snd negb]; [|symmetry; apply app_nil_r].
  destruct (f_dest fr) as [u|].
  - destruct (lookup u (u_map units)) as [h|]; [|symmetry; apply app_nil_r].
    pose proof (ref_exec_log fc h (u_store units h) r) as L. unfold log_of in L.
    destruct (ref_exec H fc h (u_store units h) r) as [[st' pdu] lg]. cbn [snd] in *. rewrite L. reflexivity.
  - destruct (is_write r); [|symmetry; apply app_nil_r].
    now rewrite apply_all_spec.
Qed.

Lemma ref_calls l a units fr : handler_events (log_of (ref_handle_frame H l a units fr)) = spec_calls H a units fr.
Proof.
  rewrite ref_log, handler_events_app, (no_auth_handler_events _ (spec_calls_no_auth a units fr)).
  destruct (decode (f_pdu fr)) as [| | |fc r]; try reflexivity. rewrite (proj1 (authorize_log a _ r)). reflexivity.
Qed.

Definition same_units (x y : ucfg St) : Prop := u_map x = u_map y /\ forall k, u_store x k = u_store y k.

Lemma ref_no_effect l a units fr : spec_calls H a units fr = [] -> same_units (units_of (ref_handle_frame H l a units fr)) units.
Proof.
  unfold ref_handle_frame, spec_calls, units_of, same_units. destruct (decode (f_pdu fr)) as [|fc|fc|fc r]; try (split; reflexivity).
  destruct (authorize a (dest_value (f_dest fr)) r) as [ok alog]. cbn [fst snd].
  destruct ok; cbn [negb]; [|split; reflexivity].
  destruct (f_dest fr) as [u|].
  - destruct (lookup u (u_map units)) as [h|] eqn:Lk; [|split; reflexivity].
    destruct (is_write r) eqn:W.
    + intros E. destruct r; cbn [is_write kind_of kind_is_read negb] in W; try discriminate; discriminate E.
    + intros _. pose proof (ref_exec_read_state fc h (u_store units h) r W) as S.
      destruct (ref_exec H fc h (u_store units h) r) as [[st' pdu] lg]. cbn [fst snd] in *. subst st'.
      split; [reflexivity|]. intros k. apply sset_same.
  - destruct (is_write r) eqn:W; [|split; reflexivity].
    destruct (u_map units) as [|[u h] rest] eqn:Em; [cbn [apply_all fst snd]; split; [assumption|reflexivity]|].
    cbn [flat_map snd]. intros E. destruct r; cbn [is_write kind_of kind_is_read negb] in W; try discriminate; discriminate E.
Qed.

Fixpoint calls_seq (l : link) (a : auth) (units : ucfg St) (frames : list frame) : list event :=
  match frames with
  | [] => []
  | fr :: rest => spec_calls H a units fr ++ calls_seq l a (units_of (ref_handle_frame H l a units fr)) rest
  end.

Lemma ref_session_calls l a : forall frames units,
  handler_events (log_of (ref_session H l a units frames)) = calls_seq l a units frames.
Proof.
  induction frames as [|fr rest IH]; intros units; [reflexivity|]. cbn [ref_session calls_seq].
  pose proof (ref_calls l a units fr) as C. unfold log_of, units_of in *.
  destruct (ref_handle_frame H l a units fr) as [[reply units'] lg]. cbn [fst snd] in *.
  specialize (IH units'). destruct (ref_session H l a units' rest) as [[rs units''] lg']. cbn [snd] in *.
  rewrite handler_events_app, C, IH. reflexivity.
Qed.

Lemma read_seq_only_reads {A} (get : N -> A + N) mk (P : event -> Prop) : (forall a, ~ P (mk a)) ->
  forall n a e, In e (snd (read_seq get mk a n)) -> ~ P e.
Proof. intros Hmk n a e Hin. destruct (read_seq_addresses get mk n a e Hin) as (i & _ & ->). apply Hmk. Qed.

Definition is_wm (e : event) : Prop :=
  match e with EvWriteMultipleCoils _ _ _ _ | EvWriteMultipleRegisters _ _ _ _ => True | _ => False end.

Lemma read_calls_not_wm u st r e : In e (read_calls H u st r) -> ~ is_wm e.
Proof.
  destruct r; cbn [read_calls]; try (intros []); apply read_seq_only_reads; intros a; exact (fun x => x).
Qed.

(* where a call in spec_calls comes from: the frame's one request, executed on the handler object the
   addressed unit id maps to, or - for a broadcast - written to some handler object *)
Lemma spec_calls_origin a units fr e : In e (spec_calls H a units fr) ->
  exists fc r, decode (f_pdu fr) = Valid fc r /\
    ((exists u h, f_dest fr = DUnit u /\ lookup u (u_map units) = Some h /\
                  In e (if is_write r then write_call h r else read_calls H h (u_store units h) r)) \/
     (exists h, In e (write_call h r))).
Proof.
  unfold spec_calls. destruct (decode (f_pdu fr)) as [| | |fc r]; try (intros []).
  destruct (fst (authorize a (dest_value (f_dest fr)) r)); [|intros []]. intros Hin. exists fc, r. split; [reflexivity|].
  destruct (f_dest fr) as [u|].
  - destruct (lookup u (u_map units)) as [h|] eqn:Lk; [|destruct Hin]. left. exists u, h. auto.
  - destruct (is_write r); [|destruct Hin]. apply in_flat_map in Hin as [[u h] [_ Hin]]. right. exists h. exact Hin.
Qed.

Lemma spec_calls_in a units fr e : In e (spec_calls H a units fr) -> is_wm e ->
  exists fc r u, decode (f_pdu fr) = Valid fc r /\ In e (write_call u r).
Proof.
  intros Hin W. destruct (spec_calls_origin a units fr e Hin) as (fc & r & Hd & [(u & h & _ & _ & Hin')|(h & Hin')]);
    exists fc, r, h; (split; [exact Hd|]); [|exact Hin'].
  destruct (is_write r); [exact Hin'|]. destruct (read_calls_not_wm _ _ _ _ Hin' W).
Qed.

(* the iterator handed to a write-multiple handler yields the transmitted values, item i at start + i *)
Lemma wm_args a units fr e : In e (spec_calls H a units fr) ->
  match e with
  | EvWriteMultipleCoils _ s n items =>
      exists fc vs, decode (f_pdu fr) = Valid fc (Modbus.WriteMultipleCoils s vs) /\ items = indexed s vs /\ N.of_nat (length vs) = n
  | EvWriteMultipleRegisters _ s n items =>
      exists fc vs, decode (f_pdu fr) = Valid fc (Modbus.WriteMultipleRegisters s vs) /\ items = indexed s vs /\ N.of_nat (length vs) = n
  | _ => True
  end.
Proof.
  intros Hin. destruct e; try exact I.
  - destruct (spec_calls_in _ _ _ _ Hin I) as (fc & r & u' & Hd & Hin').
    destruct r; cbn [write_call] in Hin'; try contradiction; destruct Hin' as [E|[]]; inversion E; subst. eauto.
  - destruct (spec_calls_in _ _ _ _ Hin I) as (fc & r & u' & Hd & Hin').
    destruct r; cbn [write_call] in Hin'; try contradiction; destruct Hin' as [E|[]]; inversion E; subst. eauto.
Qed.

(* a read call as (request kind, handler object, address) *)
Definition ev_read (e : event) : option (kind * N * N) :=
  match e with
  | EvReadCoil u a => Some (KReadCoils, u, a) | EvReadDiscreteInput u a => Some (KReadDiscreteInputs, u, a)
  | EvReadHoldingRegister u a => Some (KReadHoldingRegisters, u, a) | EvReadInputRegister u a => Some (KReadInputRegisters, u, a)
  | _ => None
  end.

Lemma write_call_not_read u r e : In e (write_call u r) -> ev_read e = None.
Proof. destruct r; cbn [write_call In]; intros Hin; try contradiction; destruct Hin as [<-|[]]; reflexivity. Qed.

(* a read call of request r on handler object u is one of the addresses of r's range *)
Lemma read_calls_in u st r e : In e (read_calls H u st r) ->
  exists s n i, arg_of r = ARange s n /\ (i < N.to_nat n)%nat /\ ev_read e = Some (kind_of r, u, s + N.of_nat i).
Proof.
  destruct r; cbn [read_calls]; try contradiction; intros Hin; apply read_seq_addresses in Hin as (i & Hi & ->);
    exists start, count, i; repeat split; exact Hi.
Qed.

(* each read queries only addresses inside the requested range, on the handler object the addressed unit id maps to *)
Theorem reads_in_range a units fr e k h addr : In e (spec_calls H a units fr) -> ev_read e = Some (k, h, addr) ->
  exists fc r u s n, decode (f_pdu fr) = Valid fc r /\ kind_of r = k /\ f_dest fr = DUnit u /\ lookup u (u_map units) = Some h /\
                     arg_of r = ARange s n /\ (s <= addr /\ addr < s + n).
Proof.
  intros Hin E. destruct (spec_calls_origin a units fr e Hin) as (fc & r & Hd & [(u & h0 & Ed & Lk & Hin')|(h0 & Hin')]).
  2:{ rewrite (write_call_not_read _ _ _ Hin') in E. discriminate. }
  destruct (is_write r); [rewrite (write_call_not_read _ _ _ Hin') in E; discriminate|].
  destruct (read_calls_in _ _ _ _ Hin') as (s & n & i & Ea & Hi & E'). rewrite E' in E. inversion E; subst.
  exists fc, r, u, s, n. repeat split; auto; lia.
Qed.

Lemma indexed_nth {A} (d : A) : forall vs s i, (i < length vs)%nat -> nth i (indexed s vs) (0, d) = (s + N.of_nat i, nth i vs d).
Proof.
  induction vs as [|v vs IH]; intros s i Hi; [cbn [length] in Hi; lia|].
  destruct i as [|i]; cbn [indexed nth].
  - f_equal. lia.
  - rewrite IH by (cbn [length] in Hi; lia). f_equal. lia.
Qed.

Section Auth.
Variable p : policy.
Variable role : ServerTypes.role.

(* the server with an authorization handler through the server without: the handler is asked once,
   first, about every well-formed request with its kind, the frame's unit id, its range / index and the
   role; on true the frame is handled as without a handler, on false nothing happens but the
   exception-01 reply (none on a broadcast); anything else is not submitted at all *)
Lemma ref_auth l units fr :
  ref_handle_frame H l (AuthHandler p role) units fr =
    match decode (f_pdu fr) with
    | Valid fc r =>
        let q := EvAuth (kind_of r) (dest_value (f_dest fr)) (arg_of r) role in
        if p (kind_of r) (dest_value (f_dest fr)) (arg_of r) role
        then let '(reply, units', lg) := ref_handle_frame H l NoAuth units fr in (reply, units', q :: lg)
        else (if dest_is_broadcast (f_dest fr) then [] else adu l (f_tx fr) (dest_value (f_dest fr)) (exception_pdu fc 1),
              units, [q])
    | _ => ref_handle_frame H l NoAuth units fr
    end.
Proof.
  unfold ref_handle_frame. destruct (decode (f_pdu fr)) as [| | |fc r]; try reflexivity. cbn [authorize].
  destruct (p (kind_of r) (dest_value (f_dest fr)) (arg_of r) role); cbn [negb]; [|reflexivity].
  destruct (f_dest fr) as [u|].
  - destruct (lookup u (u_map units)) as [h|]; [|reflexivity].
    destruct (ref_exec H fc h (u_store units h) r) as [[st' pdu] lg]. reflexivity.
  - destruct (is_write r); [|reflexivity]. destruct (apply_all H (u_map units) (u_store units) r) as [g' lg]. reflexivity.
Qed.

Lemma ref_query l units fr fc r : decode (f_pdu fr) = Valid fc r ->
  exists rest, log_of (ref_handle_frame H l (AuthHandler p role) units fr)
                 = EvAuth (kind_of r) (dest_value (f_dest fr)) (arg_of r) role :: rest /\ no_auth rest.
Proof. intros Hd. rewrite ref_log, Hd. eexists. split; [reflexivity|apply spec_calls_no_auth]. Qed.

Lemma ref_no_query l units fr : (forall fc r, decode (f_pdu fr) <> Valid fc r) ->
  log_of (ref_handle_frame H l (AuthHandler p role) units fr) = [].
Proof.
  intros Hd. rewrite ref_log. unfold spec_calls. destruct (decode (f_pdu fr)) as [|fc|fc|fc r]; try reflexivity.
  destruct (Hd fc r eq_refl).
Qed.

Lemma ref_deny l units fr fc r : decode (f_pdu fr) = Valid fc r ->
  p (kind_of r) (dest_value (f_dest fr)) (arg_of r) role = false ->
  let x := ref_handle_frame H l (AuthHandler p role) units fr in
  handler_events (log_of x) = [] /\ units_of x = units /\
  reply_of x = if dest_is_broadcast (f_dest fr) then [] else adu l (f_tx fr) (dest_value (f_dest fr)) (exception_pdu fc 1).
Proof. intros Hd Hp. cbv zeta. rewrite ref_auth, Hd, Hp. repeat split. Qed.

Lemma ref_allow l units fr fc r : decode (f_pdu fr) = Valid fc r ->
  p (kind_of r) (dest_value (f_dest fr)) (arg_of r) role = true ->
  let x := ref_handle_frame H l (AuthHandler p role) units fr in
  let y := ref_handle_frame H l NoAuth units fr in
  reply_of x = reply_of y /\ units_of x = units_of y /\ handler_events (log_of x) = log_of y.
Proof.
  intros Hd Hp. cbv zeta. rewrite ref_auth, Hd, Hp. pose proof (ref_log l NoAuth units fr) as L. rewrite Hd in L.
  destruct (ref_handle_frame H l NoAuth units fr) as [[reply units'] lg]. unfold log_of in *. cbn [snd authorize app] in *.
  subst lg. repeat split. exact (no_auth_handler_events _ (spec_calls_no_auth NoAuth units fr)).
Qed.
End Auth.

(* the decision is taken per request: the outcome of a frame depends on the policy only through
   its value at that frame's own query (there is no authorization state) *)
Definition same_decision (p p' : policy) (role : ServerTypes.role) (fr : frame) : Prop :=
  forall fc r, decode (f_pdu fr) = Valid fc r ->
    p (kind_of r) (dest_value (f_dest fr)) (arg_of r) role = p' (kind_of r) (dest_value (f_dest fr)) (arg_of r) role.

Lemma ref_per_request l p p' role units fr : same_decision p p' role fr ->
  ref_handle_frame H l (AuthHandler p role) units fr = ref_handle_frame H l (AuthHandler p' role) units fr.
Proof.
  intros Hs. rewrite !ref_auth. destruct (decode (f_pdu fr)) as [|fc|fc|fc r] eqn:Hd; try reflexivity.
  rewrite (Hs fc r Hd). reflexivity.
Qed.

Lemma ref_per_request_session l p p' role : forall frames units, Forall (same_decision p p' role) frames ->
  ref_session H l (AuthHandler p role) units frames = ref_session H l (AuthHandler p' role) units frames.
Proof.
  induction frames as [|fr rest IH]; intros units Hall; [reflexivity|]. inversion Hall; subst.
  cbn [ref_session]. rewrite (ref_per_request l p p' role units fr) by assumption.
  destruct (ref_handle_frame H l (AuthHandler p' role) units fr) as [[reply units'] lg]. rewrite IH by assumption. reflexivity.
Qed.

Lemma ref_broadcast_write l units fr fc r : f_dest fr = DBroadcast -> decode (f_pdu fr) = Valid fc r -> is_write r = true ->
  let x := ref_handle_frame H l NoAuth units fr in
  reply_of x = [] /\ log_of x = flat_map (fun uh => write_call (snd uh) r) (u_map units) /\
  units_of x = with_store units (broadcast_store r (u_map units) (u_store units)).
Proof.
  intros Ed Hd W. cbv zeta. rewrite (ref_broadcast l NoAuth units fr fc r Hd Ed eq_refl), W, apply_all_spec. repeat split.
Qed.

Lemma ref_broadcast_other l units fr : f_dest fr = DBroadcast ->
  (forall fc r, decode (f_pdu fr) = Valid fc r -> is_write r = false) ->
  let x := ref_handle_frame H l NoAuth units fr in reply_of x = [] /\ log_of x = [] /\ units_of x = units.
Proof.
  intros Ed Hd. cbv zeta. destruct (decode (f_pdu fr)) as [|fc|fc|fc r] eqn:E.
  4: rewrite (ref_broadcast l NoAuth units fr fc r E Ed eq_refl), (Hd fc r eq_refl); repeat split.
  all: unfold ref_handle_frame; rewrite E, ?Ed; repeat split.
Qed.

Lemma broadcast_store_distinct r : forall m g h, NoDup (map snd m) ->
  broadcast_store r m g h = if in_dec N.eq_dec h (map snd m) then fst (apply_write H (g h) r) else g h.
Proof.
  induction m as [|[u h0] rest IH]; intros g h Hnd; [reflexivity|].
  cbn [map snd] in Hnd. inversion Hnd as [|? ? Hnotin Hnd']; subst.
  change (broadcast_store r ((u, h0) :: rest) g h) with (broadcast_store r rest (sset g h0 (fst (apply_write H (g h0) r))) h).
  rewrite IH by assumption. cbn [map snd]. unfold sset.
  destruct (in_dec N.eq_dec h (map snd rest)) as [Hin|Hout].
  - destruct (N.eqb_spec h h0) as [->|Hne]; [contradiction|].
    destruct (in_dec N.eq_dec h (h0 :: map snd rest)) as [_|Hn]; [reflexivity|]. exfalso. apply Hn. right. exact Hin.
  - destruct (N.eqb_spec h h0) as [->|Hne].
    + destruct (in_dec N.eq_dec h0 (h0 :: map snd rest)) as [_|Hn]; [reflexivity|]. exfalso. apply Hn. left. reflexivity.
    + destruct (in_dec N.eq_dec h (h0 :: map snd rest)) as [[E|Hin]|_]; [congruence|contradiction|reflexivity].
Qed.

Lemma broadcast_store_shared r u1 u2 h g :
  broadcast_store r [(u1, h); (u2, h)] g h = fst (apply_write H (fst (apply_write H (g h) r)) r).
Proof. unfold broadcast_store. cbn [fold_left snd]. unfold sset. rewrite !N.eqb_refl. reflexivity. Qed.

Lemma ref_unit_effect l units fr fc r u h : f_dest fr = DUnit u -> lookup u (u_map units) = Some h ->
  decode (f_pdu fr) = Valid fc r ->
  let x := ref_handle_frame H l NoAuth units fr in
  u_map (units_of x) = u_map units /\
  u_store (units_of x) h = fst (fst (ref_exec H fc h (u_store units h) r)) /\
  (forall k, k <> h -> u_store (units_of x) k = u_store units k).
Proof.
  intros Ed Lk Hd. cbv zeta. rewrite (ref_unit l NoAuth units fr fc r u Hd Ed eq_refl), Lk. unfold units_of.
  destruct (ref_exec H fc h (u_store units h) r) as [[st' pdu] lg]. cbn [fst snd with_store u_map u_store].
  repeat split.
  - unfold sset. rewrite N.eqb_refl. reflexivity.
  - intros k Hk. unfold sset. destruct (N.eqb_spec k h); [contradiction|reflexivity].
Qed.

Lemma ref_keys l a units fr : u_map (units_of (ref_handle_frame H l a units fr)) = u_map units.
Proof.
  unfold ref_handle_frame, units_of. destruct (decode (f_pdu fr)) as [|fc|fc|fc r]; try reflexivity.
  destruct (authorize a (dest_value (f_dest fr)) r) as [ok alog]. destruct ok; cbn [negb]; [|reflexivity].
  destruct (f_dest fr) as [u|].
  - destruct (lookup u (u_map units)) as [h|]; [|reflexivity].
    destruct (ref_exec H fc h (u_store units h) r) as [[st' pdu] lg]. reflexivity.
  - destruct (is_write r); [|reflexivity]. destruct (apply_all H (u_map units) (u_store units) r) as [g' lg]. reflexivity.
Qed.

End Props.

Lemma read_only_table k : authz_read_only (kind_cb k) = if kind_is_read k then Allow else Deny.
Proof. destruct k; reflexivity. Qed.
Lemma read_only_policy_spec k u arg r : read_only_policy k u arg r = kind_is_read k.
Proof. destruct k; reflexivity. Qed.
Lemma default_table c : authz_default c = Deny.
Proof. destruct c; reflexivity. Qed.
Lemma default_policy_spec k u arg r : default_policy k u arg r = false.
Proof. destruct k; reflexivity. Qed.
Lemma cb_kind_cb k : cb_kind (kind_cb k) = k.
Proof. destruct k; reflexivity. Qed.
Lemma kind_cb_kind c : kind_cb (cb_kind c) = c.
Proof. destruct c; reflexivity. Qed.
