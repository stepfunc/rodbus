(* The reply shape of the reference server, and the statements about the MODEL of the code
   (handle_frame / session) that other proofs build on, obtained from the lemmas about the reference
   server through the refinement. *)
From Coq Require Import NArith List.
From Rodbus Require Import Base.Outcome Base.ServerTypes Model.Server Spec.Modbus Proofs.ServerParse Proofs.ServerProofs Proofs.ServerProps.
Import ListNotations.
Local Open Scope N_scope.

Inductive pdu_shape (fc : N) : list N -> Prop :=
| ShBits (bits : list bool) : pdu_shape fc (fc :: N.of_nat (length (pack bits)) :: pack bits)
| ShRegisters (regs : list N) : pdu_shape fc (fc :: 2 * N.of_nat (length regs) :: flat_map be regs)
| ShEcho (a b : N) : pdu_shape fc (fc :: be a ++ be b)
| ShException (code : N) : pdu_shape fc [N.lor fc 128; code].

Section Shape.
Context {St : Type}.
Variable H : handler St.

Lemma ref_exec_shape fc u st r : pdu_shape fc (snd (fst (ref_exec H fc u st r))).
Proof.
  destruct r; cbn [ref_exec];
    try (destruct (read_seq _ _ _ _) as [[vs|ex] lg]; cbn [bits_response regs_response fst snd]; constructor);
    destruct (apply_write H st _) as [st' [ex|]]; cbn [write_response fst snd]; constructor.
Qed.

(* every reply: nothing, or ONE ADU to the unit id the frame is addressed to, carrying the request's function
   code; without an authorization handler only a configured unit id is ever answered (with one, the veto
   comes before the unit lookup) *)
Theorem ref_reply l a units fr :
  reply_of (ref_handle_frame H l a units fr) = [] \/
  exists u fc body pdu, f_dest fr = DUnit u /\ (a = NoAuth -> lookup u (u_map units) <> None) /\
    f_pdu fr = fc :: body /\ pdu_shape fc pdu /\ reply_of (ref_handle_frame H l a units fr) = adu l (f_tx fr) u pdu.
Proof.
  unfold ref_handle_frame, reply_of. pose proof (decode_head (f_pdu fr)) as Hh.
  destruct (f_dest fr) as [u|]; cbn [dest_value dest_is_broadcast].
  2:{ left. destruct (decode (f_pdu fr)) as [| | |fc r]; try reflexivity.
      destruct (authorize a 0 r) as [[|] alog]; cbn [negb]; [|reflexivity].
      destruct (is_write r); [destruct (apply_all H (u_map units) (u_store units) r)|]; reflexivity. }
  destruct (decode (f_pdu fr)) as [|fc|fc|fc r]; [left; reflexivity| | |]; destruct Hh as [body Hb].
  - destruct (lookup u (u_map units)) eqn:Lk; [|left; reflexivity]. right. exists u, fc, body, (exception_pdu fc 1).
    repeat split; [intros _; rewrite Lk; discriminate|exact Hb|constructor].
  - destruct (lookup u (u_map units)) eqn:Lk; [|left; reflexivity]. right. exists u, fc, body, (exception_pdu fc 3).
    repeat split; [intros _; rewrite Lk; discriminate|exact Hb|constructor].
  - destruct (authorize a u r) as [[|] alog] eqn:Ea; cbn [negb].
    + destruct (lookup u (u_map units)) as [h|] eqn:Lk; [|left; reflexivity].
      pose proof (ref_exec_shape fc h (u_store units h) r) as Sh.
      destruct (ref_exec H fc h (u_store units h) r) as [[st' pdu] lg]. right. exists u, fc, body, pdu.
      repeat split; [intros _; rewrite Lk; discriminate|exact Hb|exact Sh].
    + right. exists u, fc, body, (exception_pdu fc 1). repeat split; [intros ->; discriminate Ea|exact Hb|constructor].
Qed.

Lemma ref_silent l units fr : reply_of (ref_handle_frame H l NoAuth units fr) <> [] ->
  exists u, f_dest fr = DUnit u /\ lookup u (u_map units) <> None.
Proof. intros Hr. destruct (ref_reply l NoAuth units fr) as [E|(u & _ & _ & _ & Ed & Lk & _)]; [contradiction|eauto]. Qed.

Lemma ref_broadcast_silent l a units fr : f_dest fr = DBroadcast -> reply_of (ref_handle_frame H l a units fr) = [].
Proof. intros Ed. destruct (ref_reply l a units fr) as [E|(u & _ & _ & _ & Ed' & _)]; [exact E|congruence]. Qed.

Lemma lookup_in {A} u (m : list (N * A)) : lookup u m <> None -> In u (map fst m).
Proof.
  induction m as [|[k s] rest IH]; cbn [lookup map fst]; [intros E; exfalso; apply E; reflexivity|].
  destruct (N.eqb_spec k u) as [->|]; [left; reflexivity|]. intros E. right. apply IH. exact E.
Qed.

Lemma ref_silent_session l : forall frames units,
  Forall2 (fun fr reply => reply <> [] -> exists u, f_dest fr = DUnit u /\ In u (map fst (u_map units)))
          frames (reply_of (ref_session H l NoAuth units frames)).
Proof.
  induction frames as [|fr rest IH]; intros units; [constructor|]. cbn [ref_session].
  pose proof (ref_silent l units fr) as S. pose proof (ref_keys H l NoAuth units fr) as K. unfold reply_of, units_of in *.
  destruct (ref_handle_frame H l NoAuth units fr) as [[reply units'] lg]. cbn [fst snd] in *.
  specialize (IH units'). destruct (ref_session H l NoAuth units' rest) as [[rs units''] lg']. cbn [fst] in *.
  constructor.
  - intros Hr. destruct (S Hr) as (u & Ed & Lk). exists u. split; [exact Ed|]. apply lookup_in. exact Lk.
  - rewrite K in IH. exact IH.
Qed.
End Shape.

Section Model.
Context {St : Type}.
Variable H : handler St.

(* a well-formed frame: reply, handler states and calls of the code are the reference server's, and formatting succeeded *)
Lemma handle_frame_of_ref l a units fr : frame_ok l fr ->
  reply_of (handle_frame H l a units fr) = Ok (reply_of (ref_handle_frame H l a units fr)) /\
  units_of (handle_frame H l a units fr) = units_of (ref_handle_frame H l a units fr) /\
  log_of (handle_frame H l a units fr) = log_of (ref_handle_frame H l a units fr).
Proof.
  intros Hok. rewrite handle_frame_refines by assumption. destruct (ref_handle_frame H l a units fr) as [[reply units'] lg].
  repeat split.
Qed.

Theorem session_never_fails l a units frames : Forall (frame_ok l) frames ->
  snd (session H l a units frames) = SOpen.
Proof.
  intros Hok. rewrite session_refines by assumption. destruct (ref_session H l a units frames) as [[rs u] lg]. reflexivity.
Qed.

Theorem query p role l units fr fc r : frame_ok l fr -> decode (f_pdu fr) = Valid fc r ->
  exists rest, log_of (handle_frame H l (AuthHandler p role) units fr)
                 = EvAuth (kind_of r) (dest_value (f_dest fr)) (arg_of r) role :: rest /\ auth_events rest = [].
Proof.
  intros Hok Hd. destruct (handle_frame_of_ref l (AuthHandler p role) units fr Hok) as (_ & _ & ->).
  destruct (ref_query H p role l units fr fc r Hd) as (rest & E & Hn). exists rest. split; [exact E|]. apply no_auth_auth_events. exact Hn.
Qed.

(* the authorization queries of a frame, under any authorization (none without a handler) *)
Theorem auth_log l a units fr : frame_ok l fr ->
  auth_events (log_of (handle_frame H l a units fr)) =
    match decode (f_pdu fr) with Valid _ r => snd (authorize a (dest_value (f_dest fr)) r) | _ => [] end.
Proof.
  intros Hok. destruct (handle_frame_of_ref l a units fr Hok) as (_ & _ & ->).
  rewrite ref_log, auth_events_app, (no_auth_auth_events _ (spec_calls_no_auth H a units fr)), app_nil_r.
  destruct (decode (f_pdu fr)) as [| | |fc r]; try reflexivity. apply authorize_log.
Qed.

Theorem deny p role l units fr fc r : frame_ok l fr -> decode (f_pdu fr) = Valid fc r ->
  p (kind_of r) (dest_value (f_dest fr)) (arg_of r) role = false ->
  let x := handle_frame H l (AuthHandler p role) units fr in
  handler_events (log_of x) = [] /\ units_of x = units /\
  reply_of x = Ok (if dest_is_broadcast (f_dest fr) then [] else adu l (f_tx fr) (dest_value (f_dest fr)) (exception_pdu fc 1)).
Proof.
  intros Hok Hd Hp. cbv zeta. destruct (handle_frame_of_ref l (AuthHandler p role) units fr Hok) as (-> & -> & ->).
  destruct (ref_deny H p role l units fr fc r Hd Hp) as (-> & -> & ->). auto.
Qed.

Theorem allow p role l units fr fc r : frame_ok l fr -> decode (f_pdu fr) = Valid fc r ->
  p (kind_of r) (dest_value (f_dest fr)) (arg_of r) role = true ->
  let x := handle_frame H l (AuthHandler p role) units fr in
  let y := handle_frame H l NoAuth units fr in
  reply_of x = reply_of y /\ units_of x = units_of y /\ handler_events (log_of x) = log_of y.
Proof.
  intros Hok Hd Hp. cbv zeta. destruct (handle_frame_of_ref l (AuthHandler p role) units fr Hok) as (-> & -> & ->).
  destruct (handle_frame_of_ref l NoAuth units fr Hok) as (-> & -> & ->).
  destruct (ref_allow H p role l units fr fc r Hd Hp) as (-> & -> & ->). auto.
Qed.

Theorem per_request_frame l p p' role units fr : frame_ok l fr -> same_decision p p' role fr ->
  handle_frame H l (AuthHandler p role) units fr = handle_frame H l (AuthHandler p' role) units fr.
Proof. intros Hok Hs. rewrite !handle_frame_refines by assumption. rewrite (ref_per_request H l p p' role units fr Hs). reflexivity. Qed.

Theorem silent l units fr : frame_ok l fr -> reply_of (handle_frame H l NoAuth units fr) <> Ok [] ->
  exists u, f_dest fr = DUnit u /\ lookup u (u_map units) <> None.
Proof.
  intros Hok. destruct (handle_frame_of_ref l NoAuth units fr Hok) as (-> & _ & _). intros E.
  apply (ref_silent H l units fr). congruence.
Qed.

End Model.
