(* C19: the step function selected by the lock scopes that the translator reads off the code
   (Gen/LockScope.v). If a reply or a transaction stops being one critical section, `code_step`
   becomes the per-point step, for which atomicity is refuted (C19_atomic_needs_lock), and
   code_step_is_step below stops compiling. *)
From Coq Require Import List Bool.
From Rodbus Require Import Gen.LockScope Model.Atomic.
Import ListNotations.

Definition code_step : world -> nat -> world :=
  if reply_in_one_critical_section && reply_bytes_formatted_under_lock && locked_statement_is_synchronous
     && transaction_in_one_critical_section && wrapper_takes_no_lock
  then step else step_pp.
Definition code_run (w : world) (sched : list nat) : world := fold_left code_step sched w.

(* the five flags of Gen/LockScope.v are true *)
Lemma code_step_is_step : code_step = step.
Proof. reflexivity. Qed.
