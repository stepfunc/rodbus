(* C13: every listener notification other than Connected is made with the connection closed (all event lists). *)
From Coq Require Import NArith List Bool.
From Rodbus Require Import Gen.SessionErrors Gen.ClientScope Model.ClientTask Model.ClientClose Proofs.ClientBase.
Import ListNotations.
Local Open Scope N_scope.

Lemma tcp_arms_close_first : forall e, closed_first (tcp_arm e) = true.
Proof. destruct e; reflexivity. Qed.
Lemma serial_arms_close_first : forall e, closed_first (serial_arm e) = true.
Proof. destruct e; reflexivity. Qed.

Section Close.
Variable cfg : config.
Variable arm : session_error -> list scope_effect.
Hypothesis Harm : forall e, closed_first (arm e) = true.

Lemma close_scan_app a : forall b open, scan arm open (a ++ b) =
  let '(o1, k1) := scan arm open a in let '(o2, k2) := scan arm o1 b in (o2, k1 && k2).
Proof.
  induction a as [|x a IH]; intros b open; cbn [app scan].
  - destruct (scan arm open b). reflexivity.
  - destruct x as [id r|tx id|tx id|tx id|l| |e]; try apply IH.
    + destruct l; try apply IH; rewrite IH; destruct (scan arm open a) as [o1 k1]; destruct (scan arm o1 b) as [o2 k2]; rewrite andb_assoc; reflexivity.
Qed.

Lemma scan_mute o : mute o -> forall open, scan arm open o = (open, true).
Proof.
  induction o as [|x o IH]; intros H open; [reflexivity|]. apply andb_prop in H. destruct H as [Hx Ho].
  destruct x; try discriminate Hx; cbn [scan]; apply IH, Ho.
Qed.

(* P open (s', o): scanning o from `open` finds every notification in order, and if the connection is open afterwards the
   task is in a connected phase (or gone without a word) *)
Definition P (open : bool) (r : state * list output) : Prop :=
  snd (scan arm open (snd r)) = true /\ (fst (scan arm open (snd r)) = true -> connected (ph (fst r)) = true \/ ph (fst r) = PDone).

(* closed: the scan ends with the connection closed and no complaint *)
Definition C (open : bool) (o : list output) : Prop := scan arm open o = (false, true).

Lemma C_P open r : C open (snd r) -> P open r.
Proof. intros H. unfold P, C in *. rewrite H. cbn. split; [reflexivity|discriminate]. Qed.

Lemma end_C open e : C open [OEnd e].
Proof. unfold C. cbn [scan]. rewrite Harm. rewrite andb_false_r. reflexivity. Qed.

Lemma C_end open e post : C false post -> C open (OEnd e :: post).
Proof. intros H. unfold C in *. cbn [scan]. rewrite Harm, andb_false_r. exact H. Qed.

Lemma end_session_C s e open : C open (snd (end_session s e)).
Proof.
  unfold end_session. destruct e;
    try (apply wait_for_cases; [intros s1 d _|]; cbn [emit snd app]; apply C_end; [reflexivity|apply scan_mute, mute_crash]).
  - unfold loop_top, start_connecting. destruct (enabled s); apply C_end; reflexivity.
  - unfold terminate. cbn [snd app]. apply C_end. unfold C. cbn [scan]. rewrite (scan_mute _ (mute_drop _)). reflexivity.
Qed.

Definition Inv (open : bool) (s : state) : Prop := open = true -> connected (ph s) = true \/ ph s = PDone.

Lemma P_pads open r r0 : pads r r0 -> P open r0 -> P open r.
Proof.
  intros (Hf & pre & post & H1 & H2 & Ho) Hp. unfold P in *. rewrite Hf, Ho, close_scan_app, (scan_mute pre H1), close_scan_app.
  destruct (scan arm open (snd r0)) as [o1 k1]. rewrite (scan_mute post H2). cbn [fst snd andb] in *. rewrite andb_true_r. exact Hp.
Qed.

(* every result the listener can see reports, Connected apart, with the connection closed *)
Lemma noted_P s open r0 : Inv open s -> noted s r0 -> P open r0.
Proof.
  intros Hi Hn.
  assert (Hoff : forall p, ph s = p -> connected p = false -> p <> PDone -> open = false).
  { intros p <- Hc Hd. destruct open; [|reflexivity]. destruct (Hi eq_refl); congruence. }
  assert (Hsame : forall s', ph s' = ph s -> P open (s', [])).
  { intros s' Hp. split; [reflexivity|]. cbn [fst snd scan]. rewrite Hp. exact Hi. }
  destruct Hn as [s' Hp He|s' Hp Hl He|s' Hc1 Hc2 He|s' _ Hp|s' pre Hp Hs|s' se d u Hc1 Hp He|s' se Hc1 Hp|s' Hc1 Hp He
                 |s' Hp1 Hp He|s' d u Hp1 Hp He|s' Hs Hp He|s' Hs Hp He].
  - (* n_unnoticed *) apply Hsame, Hp.
  - (* n_setting *) apply Hsame, Hp.
  - (* n_connected_on *) split; [reflexivity|]. intros _. left. exact Hc2.
  - (* n_crashed *) split; [reflexivity|]. intros _. right. exact Hp.
  - (* n_shutdown *) apply C_P. cbn [snd]. destruct Hs as [[_ ->]|(Hl & Hc & ->)]; [apply C_end; reflexivity|].
    rewrite (Hoff _ eq_refl Hc) by (intros E; rewrite E in Hl; discriminate). reflexivity.
  - (* n_lost *) apply C_P, C_end. reflexivity.
  - (* n_lost_crashed *) apply C_P, end_C.
  - (* n_disabled_on *) apply C_P, C_end. reflexivity.
  - (* n_connected *) split; [reflexivity|]. intros _. left. cbn [fst]. rewrite Hp. reflexivity.
  - (* n_refused *) rewrite (Hoff _ Hp1) by (reflexivity || discriminate). apply C_P. reflexivity.
  - (* n_dial *) assert (open = false) as -> by (destruct Hs as [E|[u E]]; apply (Hoff _ E); (reflexivity || discriminate)). apply C_P. reflexivity.
  - (* n_disabled_off *) assert (open = false) as -> by (destruct Hs as [E|[u E]]; apply (Hoff _ E); (reflexivity || discriminate)). apply C_P. reflexivity.
Qed.

Theorem step_P s e open : Inv open s -> P open (step cfg s e).
Proof. intros Hi. destruct (step_seen cfg s e) as (r0 & Hp & H0). exact (P_pads open _ r0 Hp (noted_P s open r0 Hi H0)). Qed.

Theorem run_close_scan : forall es s open, Inv open s ->
  snd (scan arm open (snd (run cfg s es))) = true /\ Inv (fst (scan arm open (snd (run cfg s es)))) (fst (run cfg s es)).
Proof.
  induction es as [|e es IH]; intros s open Hi; [split; [reflexivity|exact Hi]|]. rewrite run_cons. cbn [fst snd].
  pose proof (step_P s e open Hi) as [H1 H2]. specialize (IH _ _ H2). rewrite close_scan_app.
  destruct (scan arm open (snd (step cfg s e))) as [op1 k1]. cbn [fst snd] in *. destruct (scan arm op1 _) as [op2 k2]. cbn [fst snd] in *.
  destruct IH as [IH1 IH2]. rewrite H1, IH1. split; [reflexivity|exact IH2].
Qed.

Theorem notified_closed_run s es : notified_closed arm (init_outputs ++ snd (run cfg s es)) = true.
Proof.
  unfold notified_closed, init_outputs. cbn [app scan negb andb].
  assert (Hi : Inv false s) by (intros E; discriminate E).
  destruct (run_close_scan es s false Hi) as [H _]. destruct (scan arm false (snd (run cfg s es))) as [op k]. exact H.
Qed.

End Close.
