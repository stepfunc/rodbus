(* C03 over a session (Model/ClientSession.v against Spec/ClientCodecSpec.v). call_step says what one
   call does to the queue and the transaction id counter; by it the wire log of a sequence of
   calls is ref_session_wire and the byte stream of the connection is ref_session_stream
   (spec_fate / strip_fates carry the transport and peer events over to the Spec). Then: the API
   path and frames with other ids do not matter, the stream is the concatenation of the wire log
   when nothing is cut, and in the Spec nothing follows a cut frame. *)
From Coq Require Import NArith List Lia Arith.
From Rodbus Require Import Base.ClientTypes Model.Format Model.ClientRequest Model.ClientPaths
  Model.ClientSession Spec.ClientCodecSpec Gen.SessionErrors Proofs.ClientCodecProofs
  Proofs.ClientPathsProofs.
From Rodbus Require Model.ClientTask Spec.ClientSpec.
Import ListNotations.
Module T := Rodbus.Model.ClientTask.
Local Open Scope N_scope.

(* the task's counter: the k-th request gets k mod 65536 (= Spec/ClientSpec.v txid_spec, C11_txid) *)
Lemma txid_next_mod k : T.txid_next (k mod 65536) = ((k + 1) mod 65536, ClientSpec.txid_spec k).
Proof.
  unfold T.txid_next, txid_max, ClientSpec.txid_spec.
  destruct (N.eqb_spec (k mod 65536) 65535) as [E|E]; f_equal; lia.
Qed.

(* what a call does, through any API: rejected before the queue (nothing changes), or queued, and
   then the task takes the next transaction id before it formats request_of c *)
Lemma call_step {A} p k c (X : A) (F : N -> N -> request -> A) : call_wf c ->
  match submit_via p c with
  | Rejected _ => X
  | Queued r => let '(v', tx) := T.txid_next (k mod 65536) in F v' tx r
  end = if reaches_task c then F ((k + 1) mod 65536) (k mod 65536) (request_of c) else X.
Proof.
  intros Hwf. rewrite submit_via_spec, txid_next_mod. pose proof (build_spec c Hwf) as Hb.
  destruct (build c) as [r|e|]; [destruct Hb as [-> ->]|destruct Hb as [-> _]|contradiction]; reflexivity.
Qed.

Lemma within_reaches_true c : within_limits_b c = true -> reaches_task c = true.
Proof. intros Hl. destruct (reaches_task c) eqn:Hr; [reflexivity|]. now rewrite (within_reaches c Hr) in Hl. Qed.

Definition is_tcp (f : framing) : bool := match f with Tcp => true | Rtu => false end.
Definition strip (calls : list (path * N * call)) : list (N * call) := map (fun x => (snd (fst x), snd x)) calls.

Theorem session_wire_ref f : forall calls k, Forall (fun x => call_wf (snd x)) calls ->
  session_wire f (k mod 65536) calls = ref_session_wire (is_tcp f) k (strip calls).
Proof.
  induction calls as [|[[p uid] c] rest IH]; intros k Hall; [reflexivity|].
  inversion Hall as [|? ? Hwf Hrest]; subst. cbn [snd] in Hwf.
  cbn [session_wire strip map ref_session_wire fst snd]. fold (strip rest). rewrite call_step by assumption.
  destruct (within_limits_b c) eqn:Hl.
  - rewrite (within_reaches_true c Hl). unfold transmit. rewrite encode_request_of, Hl by auto using within_reaches_true.
    cbn [snd app]. rewrite IH by assumption. now destruct f.
  - destruct (reaches_task c) eqn:Hr; [|now apply IH].
    unfold transmit. rewrite encode_request_of, Hl by assumption. now apply IH.
Qed.

Corollary session_wire_from_start f calls : Forall (fun x => call_wf (snd x)) calls ->
  session_wire f 0 calls = ref_session_wire (is_tcp f) 0 (strip calls).
Proof. intros H. exact (session_wire_ref f calls 0 H). Qed.

Definition spec_fate (fate : tx_fate) (evs : list rx_event) : call_fate :=
  {| cut_after := match fate with TxCut k => Some k | TxAll => None end; connection_lost := rx_loses_connection evs |}.
Definition strip_fates (calls : list (path * N * call * tx_fate * list rx_event)) : list (N * call * call_fate) :=
  map (fun x => let '(p, uid, c, fate, evs) := x in (uid, c, spec_fate fate evs)) calls.

Theorem session_stream_ref f : forall calls k, Forall (fun x => call_wf (snd (fst (fst x)))) calls ->
  session_stream f (k mod 65536) calls = ref_session_stream (is_tcp f) k (strip_fates calls).
Proof.
  induction calls as [|[[[[p uid] c] fate] evs] rest IH]; intros k Hall; [reflexivity|].
  inversion Hall as [|? ? Hwf Hrest]; subst. cbn [snd fst] in Hwf.
  cbn [session_stream strip_fates map ref_session_stream]. fold (strip_fates rest). rewrite call_step by assumption.
  destruct (within_limits_b c) eqn:Hl.
  - rewrite (within_reaches_true c Hl), encode_request_of, Hl, IH by auto using within_reaches_true.
    unfold spec_fate. cbn [cut_after connection_lost]. now destruct f, fate.
  - destruct (reaches_task c) eqn:Hr; [|now apply IH]. rewrite encode_request_of, Hl by assumption. now apply IH.
Qed.

(* what the peer sends while a request waits is irrelevant for what the client writes, except that
   losing the connection ends the stream: frames with other transaction ids (stale replies,
   duplicates, foreign frames) can be inserted or removed at will *)
Lemma rx_skip_irrelevant evs1 evs2 : rx_loses_connection (evs1 ++ RxSkip :: evs2) = rx_loses_connection (evs1 ++ evs2).
Proof. induction evs1 as [|e r IH]; [reflexivity|]. destruct e; cbn [app rx_loses_connection]; try reflexivity. exact IH. Qed.

Theorem session_stream_peer_independent f v pre p uid c fate evs1 evs2 post :
  session_stream f v (pre ++ (p, uid, c, fate, evs1 ++ RxSkip :: evs2) :: post) =
  session_stream f v (pre ++ (p, uid, c, fate, evs1 ++ evs2) :: post).
Proof.
  revert v. induction pre as [|[[[[p' uid'] c'] fate'] evs'] pre IH]; intros v; cbn [app session_stream].
  - rewrite rx_skip_irrelevant. reflexivity.
  - destruct (submit_via p' c') as [r'|rj]; [|apply IH]. destruct (T.txid_next v) as [v' tx].
    destruct (client_encode f tx uid' r'); [|apply IH|apply IH]. rewrite IH. reflexivity.
Qed.

Lemma session_wire_paths f : forall calls calls' v,
  map (fun x => (snd (fst x), snd x)) calls = map (fun x => (snd (fst x), snd x)) calls' ->
  session_wire f v calls = session_wire f v calls'.
Proof.
  induction calls as [|[[p uid] c] rest IH]; intros calls' v H; destruct calls' as [|[[p' uid'] c'] rest']; try discriminate; [reflexivity|].
  cbn [map fst snd] in H. inversion H; subst. cbn [session_wire]. rewrite !submit_via_spec.
  destruct (build c'); [destruct (T.txid_next v); f_equal|..]; apply IH; assumption.
Qed.

Theorem session_stream_concat f : forall calls v,
  Forall (fun x => snd (fst x) = TxAll /\ rx_loses_connection (snd x) = false) calls ->
  session_stream f v calls = concat (session_wire f v (map (fun x => fst (fst x)) calls)).
Proof.
  induction calls as [|[[[[p uid] c] fate] evs] rest IH]; intros v Hall; [reflexivity|].
  inversion Hall as [|? ? [Hf He] Hrest]; subst. cbn [fst snd] in Hf, He. subst fate.
  cbn [session_stream session_wire map fst snd]. destruct (submit_via p c) as [r'|rj]; [|apply IH; assumption].
  destruct (T.txid_next v) as [v' tx]. unfold transmit. destruct (client_encode f tx uid r'); cbn [snd app concat].
  - rewrite He, IH by assumption. reflexivity.
  - apply IH; assumption.
  - apply IH; assumption.
Qed.

(* the bound on j is asked for every t: the length of a frame does not depend on its transaction id *)
Theorem ref_stream_cut_is_last (tcp : bool) (uid : N) (c : call) (j : nat) : forall pre k post,
  within_limits_b c = true ->
  (forall t, (j < length (if tcp then ref_encode_tcp t uid c else ref_encode_rtu uid c))%nat) ->
  ref_session_stream tcp k (pre ++ (uid, c, FateCut j) :: post) = ref_session_stream tcp k (pre ++ [(uid, c, FateCut j)]).
Proof.
  induction pre as [|[[u' c'] fate'] pre IH]; intros k post Hl Hj.
  - cbn [app ref_session_stream]. rewrite Hl. cbn [cut_after FateCut].
    destruct (Nat.ltb_spec j (length (if tcp then ref_encode_tcp (k mod 65536) uid c else ref_encode_rtu uid c))); [reflexivity|].
    specialize (Hj (k mod 65536)). lia.
  - cbn [app ref_session_stream]. rewrite !(IH _ post) by assumption. reflexivity.
Qed.
