(* C13 - the wait states (WaitAfterFailedConnect / WaitAfterDisconnect, `fail_requests_for(delay)`) end
   exactly at wait_start + delay, whatever commands are handled in between.

   The phase PWaiting u carries the deadline u = now + d computed ONCE, when the listener was told
   (ClientTask.wait_for).  In the code this is the single `tokio::time::sleep(duration)` future that
   `fail_requests_for` creates before its loop and polls in every `select!` round: handling a command
   in the other arm does not re-create it. *)
From Coq Require Import NArith List.
From Rodbus Require Import Spec.Lifecycle Model.ClientTask Proofs.ClientBase.
Import ListNotations.
Local Open Scope N_scope.

Section Wait.
Variable cfg : config.

(* the ways a wait state is left other than by its own timer *)
Definition left_early (s' : state) : Prop := ph s' = PDone \/ enabled s' = false.

Lemma wait_take s u c : ph s = PWaiting u -> ph (fst (take s c)) = PWaiting u \/ left_early (fst (take s c)).
Proof.
  intros Hp. assert (Hl : listens (ph s) = true) by (rewrite Hp; reflexivity). unfold left_early.
  destruct (take_takes s c Hl) as [r _|r Hi|Hi|_|c s1 _ _ Hp1 _|c s1 _ _ _ _ Hw|c s1 _ _ _ _ Hi|c s1 _ _ _ He1 _ _]; cbn [fst].
  - (* tk_fail_fast *) left. exact Hp.
  - (* tk_transmit *) rewrite Hp in Hi. discriminate Hi.
  - (* tk_shutdown_idle *) rewrite Hp in Hi. discriminate Hi.
  - (* tk_shutdown_down *) right. left. reflexivity.
  - (* tk_set *) left. rewrite Hp1. exact Hp.
  - (* tk_enabled *) rewrite Hp in Hw. discriminate Hw.
  - (* tk_disabled_idle *) rewrite Hp in Hi. discriminate Hi.
  - (* tk_disabled_down *) right. right. unfold loop_top. rewrite He1. exact He1.
Qed.

Lemma wait_step s u e : ph s = PWaiting u ->
  let s' := fst (step cfg s e) in
  ph s' = PWaiting u \/ left_early s' \/ (e = EvTimer /\ fire cfg u <= now s).
Proof.
  intros Hp. cbv zeta. unfold left_early.
  destruct (step_steps cfg s e) as [e s' _ Hq|c st _|c st _ _|c st _ _ _|c st _ _|c q _ _|_ _ Hi|_ _ _ _|s1 d Hi _|Hi
                                   |e _ _|e s0 r res Hf|e err se Hi _ _|r tx u0 Hi|r tx u0 n Hi _|u0 Hi Hle]; cbn [fst].
  - (* st_quiet *) left. rewrite (quiet_ph _ _ Hq). exact Hp.
  - (* st_nohandle *) left. exact Hp.
  - (* st_dropped *) left. exact Hp.
  - (* st_queued *) left. exact Hp.
  - (* st_blocked *) left. exact Hp.
  - (* st_take *) destruct (wait_take (popped s q) u c Hp) as [H|H]; auto.
  - (* st_closed_idle *) rewrite Hp in Hi. discriminate Hi.
  - (* st_closed_down *) right. left. left. reflexivity.
  - (* st_connected *) rewrite Hp in Hi. discriminate Hi.
  - (* st_refused *) rewrite Hp in Hi. discriminate Hi.
  - (* st_crash *) right. left. left. reflexivity.
  - (* st_finish *) pose proof (finishes_inflight cfg _ _ _ _ _ Hf) as Hi. rewrite Hp in Hi. discriminate Hi.
  - (* st_read_error_idle *) rewrite Hp in Hi. discriminate Hi.
  - (* st_written *) rewrite Hp in Hi. discriminate Hi.
  - (* st_released *) rewrite Hp in Hi. discriminate Hi.
  - (* st_wait_over *) rewrite Hp in Hi. inversion Hi; subst u0. right. right. auto.
Qed.

Lemma wait_command_keeps_deadline s u c q : ph s = PWaiting u -> enabled s = true -> queue s = c :: q ->
  (exists r, c = CReq r) \/ c = CEnable \/ (exists l, c = CDecode l) ->
  ph (fst (step cfg s EvRecv)) = PWaiting u.
Proof.
  intros Hp He Hq Hc. cbn [step]. rewrite Hp, Hq. cbn [listens]. unfold take. cbn [ph set_chan]. rewrite Hp.
  destruct Hc as [[r ->]|[->|[l ->]]]; cbn [change_setting set_enabled set_decode enabled set_chan fst ph]; auto.
  rewrite He. cbn [fst ph set_decode set_chan]. exact Hp.
Qed.

Lemma wait_timer s u : ph s = PWaiting u -> enabled s = true ->
  step cfg s EvTimer = if fire cfg u <=? now s then (set_ph s PConnecting, [OListen LConnecting; ODial]) else (s, []).
Proof.
  intros Hp He. cbn [step]. rewrite Hp. destruct (fire cfg u <=? now s); [|reflexivity].
  unfold loop_top. rewrite He. reflexivity.
Qed.

Lemma wait_run : forall es s u, ph s = PWaiting u ->
  ph (fst (run cfg s es)) = PWaiting u \/
  exists es1 e es2, es = (es1 ++ e :: es2)%list /\
    let s1 := fst (run cfg s es1) in ph s1 = PWaiting u /\
    (left_early (fst (step cfg s1 e)) \/ (e = EvTimer /\ fire cfg u <= now s1)).
Proof.
  induction es as [|e es IH]; intros s u Hp; [left; exact Hp|].
  destruct (wait_step s u e Hp) as [Hs|Hs].
  - cbn [run]. destruct (step cfg s e) as [s1 o1] eqn:E1. cbn [fst] in Hs.
    destruct (IH s1 u Hs) as [Hk|(es1 & e' & es2 & -> & H1 & H2)].
    + left. destruct (run cfg s1 es) as [s2 o2]. exact Hk.
    + right. exists (e :: es1), e', es2. split; [reflexivity|]. cbn [run app]. rewrite E1.
      destruct (run cfg s1 es1) as [s2 o2]. cbn [fst] in *. auto.
  - right. exists [], e, es. split; [reflexivity|]. cbn [run fst]. auto.
Qed.

End Wait.
