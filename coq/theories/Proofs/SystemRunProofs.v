(* Composition of the reader refinement (C05/C06), the session refinement (C01) and the command
   layer: the server as a whole with its command channel. *)
From Coq Require Import NArith List.
From Rodbus Require Base.Frame Base.ServerTypes Base.ServerRun Model.Server Model.ServerRun Spec.Framing Spec.Modbus
  Model.SystemServer Model.SystemServerRun Spec.SystemSpec Proofs.C05Proofs Proofs.ServerProofs Proofs.ServerRunProofs Proofs.SystemProofs.
Import ListNotations.
Module F := Rodbus.Base.Frame.
Module S := Rodbus.Base.ServerTypes.
Module R := Rodbus.Base.ServerRun.
Import SystemServer SystemServerRun SystemSpec.

Notation bytes := Framing.bytes.

(* every schedule entry but CNext passes its event through and leaves the frames alone *)
Lemma fill_ok l : forall cevs frames, Forall (ServerProofs.frame_ok l) frames ->
  ServerRunProofs.events_ok l (fst (fill frames cevs)).
Proof.
  unfold ServerRunProofs.events_ok.
  induction cevs as [|ev rest IH]; intros frames Hok; [constructor|].
  destruct ev; cbn [fill].
  2-5: specialize (IH frames Hok); destruct (fill frames rest) as [evs b]; constructor; [exact I|exact IH].
  destruct frames as [|f fs]; [constructor|]. inversion Hok as [|? ? Hf Hfs]; subst.
  specialize (IH fs Hfs). destruct (fill fs rest) as [evs b]. constructor; assumption.
Qed.

Lemma fill_strip : forall cevs frames,
  fill frames (cstrip cevs) = (R.strip (fst (fill frames cevs)), snd (fill frames cevs)).
Proof.
  induction cevs as [|ev rest IH]; intros frames; [reflexivity|].
  destruct ev as [|[lvl|]| | |]; cbn [cstrip fill].
  1: destruct frames as [|f frames]; [reflexivity|].
  all: rewrite IH; destruct (fill frames rest) as [evs b]; reflexivity.
Qed.

Section Sys.
Context {St : Type}.
Variable H : S.handler St.

(* the oracle of C01_system_commands_*: cut the stream by the framing rule alone (Spec/SystemSpec.v's ref_cut),
   run the select! outcomes over the reference Modbus server. It uses the schedule filling of
   Model/SystemServerRun.v, which is why it is stated here and not beside ref_server_system in Spec/. *)
Definition ref_server_system_run (l : S.link) (a : S.auth) (units : S.ucfg St) (d : N) (s : list N) (fi : F.fin) (cevs : list cevent) :=
  let r := ref_cut l s fi in
  let '(evs, at_end) := fill (map to_server_frame (fst r)) cevs in
  (R.run (E := Server.serr) (fun u f => R.ok_result (Modbus.ref_handle_frame H l a u f)) units d R.MIdle evs,
   if at_end then Some (snd r) else None).

Theorem server_system_run_refines l a units d s chunks fi cevs :
  bytes s -> concat chunks = s -> Forall (fun c => c <> []) chunks ->
  server_system_run H l a units d chunks fi cevs = ref_server_system_run l a units d s fi cevs.
Proof.
  intros Hb Hc Hne. unfold server_system_run, ref_server_system_run.
  rewrite (SystemProofs.reader_cut l s chunks fi Hb Hc Hne). cbn [ReaderGeneric.liftr fst snd].
  rewrite ReaderGeneric.frames_of_map.
  pose proof (fill_ok l cevs _ (SystemProofs.cut_ok l s fi Hb)) as Hok.
  destruct (fill _ cevs) as [evs b]. rewrite (ServerRunProofs.session_run_refines H l a units d evs Hok). reflexivity.
Qed.

End Sys.
