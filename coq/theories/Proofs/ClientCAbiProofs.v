(* C03 through the extern "C" layer (Model/ClientCAbi.v). *)
From Coq Require Import NArith List String.
From Rodbus Require Import Base.Outcome Base.ClientTypes Model.ClientRequest Spec.ClientCodecSpec Model.ClientCAbi
 Model.Range Model.ClientPaths Model.ClientSession Proofs.ClientCodecProofs Proofs.ClientPathsProofs Proofs.ClientSessionProofs.
Import ListNotations.
Local Open Scope N_scope.

(* a read: the C function validates the range with AddressRange::try_from, FfiChannel applies the per-type
   limit; together they are the `build` of the Channel API *)
Lemma cabi_read_queued s n (mk : N -> N -> call) :
  mk = CReadCoils \/ mk = CReadDiscreteInputs \/ mk = CReadHoldingRegisters \/ mk = CReadInputRegisters ->
  match try_from s n with
  | inl _ => None
  | inr rg => match submit_via ViaFfi (mk (fst rg) (snd rg)) with Queued r => Some r | Rejected _ => None end
  end = match build (mk s n) with Ok r => Some r | _ => None end.
Proof.
  intros Hmk. destruct (try_from s n) as [e|rg] eqn:E.
  - destruct Hmk as [-> | [-> | [-> | ->]]]; cbn [build]; unfold of_read_bits, of_read_registers, limited_count; cbn [fst snd];
      rewrite E; reflexivity.
  - rewrite (try_from_inr s n rg E). cbn [fst snd]. rewrite submit_via_spec. destruct (build (mk s n)); reflexivity.
Qed.

(* a C-ABI call queues exactly the request the Channel API's `build` constructs, or nothing *)
Theorem cabi_queued_spec c : cabi_queued c = match build c with Ok r => Some r | _ => None end.
Proof.
  destruct c as [s n|s n|s n|s n|i v|i v|s vs|s vs]; cbn [cabi_queued].
  - apply (cabi_read_queued s n CReadCoils); auto.
  - apply (cabi_read_queued s n CReadDiscreteInputs); auto.
  - apply (cabi_read_queued s n CReadHoldingRegisters); auto.
  - apply (cabi_read_queued s n CReadInputRegisters); auto.
  - reflexivity.
  - reflexivity.
  - rewrite submit_via_spec. destruct (build _); reflexivity.
  - rewrite submit_via_spec. destruct (build _); reflexivity.
Qed.

(* the code, as regenerated: both write-multiple functions leave the caller's list untouched *)
Lemma lists_kept : list_kept "write_multiple_coils" = true /\ list_kept "write_multiple_registers" = true.
Proof. split; vm_compute; reflexivity. Qed.

Lemma cabi_list_calls_kept {A} (mk : N -> list A -> call) : forall steps held,
  map (fun x => (snd (fst x), snd x)) (cabi_list_calls true mk held steps) = ref_list_calls mk held steps.
Proof.
  induction steps as [|[vs|[uid start]] rest IH]; intros held; cbn [cabi_list_calls ref_list_calls map fst snd]; [reflexivity|apply IH|].
  f_equal. apply IH.
Qed.

Lemma cabi_list_calls_wf {A} (mk : N -> list A -> call) (P : list A -> Prop) :
  (forall start l, start < 65536 -> P l -> call_wf (mk start l)) -> (forall a b, P a -> P b -> P (a ++ b)) ->
  forall steps held, P held -> Forall (fun st => match st with inl vs => P vs | inr (uid, start) => start < 65536 end) steps ->
  Forall (fun x => call_wf (snd x)) (cabi_list_calls true mk held steps).
Proof.
  intros Hmk Happ. induction steps as [|[vs|[uid start]] rest IH]; intros held Hh Hall; cbn [cabi_list_calls]; [constructor| |];
    inversion Hall as [|? ? H1 H2]; subst.
  - apply IH; [apply Happ; assumption|assumption].
  - constructor; [cbn [snd]; apply Hmk; assumption|apply IH; assumption].
Qed.

(* a caller-owned list through any sequence of add / write steps: the wire log is the Spec's -
   every write call transmits the values the list holds at call time (as far as within the limits),
   with transaction ids 0, 1, 2, ...; P is what makes a list of values well-formed for mk *)
Theorem cabi_list_wire_ref {A} f (mk : N -> list A -> call) (P : list A -> Prop) steps :
  (forall start l, start < 65536 -> P l -> call_wf (mk start l)) -> (forall a b, P a -> P b -> P (a ++ b)) -> P [] ->
  Forall (fun st => match st with inl vs => P vs | inr (uid, start) => start < 65536 end) steps ->
  session_wire f 0 (cabi_list_calls true mk [] steps) = ref_session_wire (is_tcp f) 0 (ref_list_calls mk [] steps).
Proof.
  intros Hmk Happ Hnil Hall. rewrite session_wire_from_start.
  - unfold strip. rewrite cabi_list_calls_kept. reflexivity.
  - apply (cabi_list_calls_wf mk P); assumption.
Qed.
