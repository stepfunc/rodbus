(* The single-frame refinement handle_frame = ref_handle_frame for all eight function codes,
   unsupported codes and the empty PDU, and its lifting to frame sequences. *)
From Coq Require Import NArith List Lia Arith.
From Rodbus Require Import Base.Outcome Base.Cursor Base.ServerTypes Model.Server Gen.Consts Gen.AuthzTable Spec.Modbus
  Proofs.CursorProofs Proofs.ServerFormat Proofs.ServerBits Proofs.ServerParse.
Import ListNotations.
Local Open Scope N_scope.

Notation hdr_at l tx d f := (hdr_of l (txv tx) (dest_value d) (ffield_value f)).

Lemma format_reply_ok l tx d f (body : lserializer) bs : tx_ok l tx ->
  fst (body (hdr_at l tx d (FValid f))) = Ok (wapp (hdr_at l tx d (FValid f)) bs) -> (length bs <= 252)%nat ->
  format_reply l tx d f body = (Ok (adu l tx (dest_value d) (fcode_value f :: bs)), snd (body (hdr_at l tx d (FValid f)))).
Proof.
  intros Htx Hb Hlen. unfold format_reply. erewrite format_generic_appends by eassumption. reflexivity.
Qed.

(* partial bytes written before a handler exception are discarded: the fallback formats the
   exception reply from offset 0 *)
Lemma format_reply_exc l tx d f (body : lserializer) ex : tx_ok l tx ->
  fst (body (hdr_at l tx d (FValid f))) = Err (EExc ex) ->
  format_reply l tx d f body = (Ok (adu l tx (dest_value d) (exception_pdu (fcode_value f) ex)), snd (body (hdr_at l tx d (FValid f)))).
Proof.
  intros Htx Hb. unfold format_reply. erewrite format_generic_err by eassumption. cbv beta iota.
  rewrite format_ex_ok by assumption. reflexivity.
Qed.

Section Refine.
Context {St : Type}.
Variable H : handler St.

Lemma ser_bits_spec w s n get mk : 1 <= n <= 2000 -> s + n <= 65536 -> (length (w_out w) + 252 <= w_cap w)%nat ->
  ser_bit_writer (s, n) get mk w =
    match read_seq get mk s (N.to_nat n) with
    | (inl vs, lg) => (Ok (wapp w (N.of_nat (length (pack vs)) :: pack vs)), lg)
    | (inr ex, lg) => (Err (EExc ex), lg)
    end.
Proof.
  intros Hn Hs Hw. unfold ser_bit_writer. cbn [fst snd]. rewrite calc_bytes_for_bits_ok by lia.
  rewrite wr_u8_ok by lia.
  change 0 with (byte_of []) at 1. change 0 with (N.of_nat (length (@nil bool))).
  rewrite bit_loop_spec; [| cbn [length]; lia | lia | unfold wapp; cbn [w_out w_cap length]; rewrite app_length; cbn [length]; lia ].
  cbn [app]. destruct (read_seq get mk s (N.to_nat n)) as [[vs|ex] lg] eqn:E; [|reflexivity].
  rewrite wapp_app. cbn [app]. apply read_seq_length in E. rewrite pack_length, E.
  replace (N.of_nat ((N.to_nat n + 7) / 8)) with ((n + 7) / 8) by lia. reflexivity.
Qed.

Lemma ser_regs_spec w s n get mk : 1 <= n <= 125 -> s + n <= 65536 -> (length (w_out w) + 252 <= w_cap w)%nat ->
  ser_register_writer (s, n) get mk w =
    match read_seq get mk s (N.to_nat n) with
    | (inl vs, lg) => (Ok (wapp w (2 * N.of_nat (length vs) :: flat_map be vs)), lg)
    | (inr ex, lg) => (Err (EExc ex), lg)
    end.
Proof.
  intros Hn Hs Hw. unfold ser_register_writer. cbn [fst snd]. unfold calc_bytes_for_registers.
  destruct (N.ltb_spec 255 (2 * n)) as [Hbig|_]; [lia|].
  rewrite wr_u8_ok by lia.
  rewrite reg_loop_spec; [| lia | unfold wapp; cbn [w_out w_cap]; rewrite app_length; cbn [length]; lia ].
  cbn [app]. destruct (read_seq get mk s (N.to_nat n)) as [[vs|ex] lg] eqn:E; [|reflexivity].
  rewrite wapp_app. cbn [app]. apply read_seq_length in E. rewrite E, N2Nat.id. reflexivity.
Qed.

Lemma flat_map_be_length vs : length (flat_map be vs) = (2 * length vs)%nat.
Proof. induction vs as [|v vs IH]; [reflexivity|]. cbn [flat_map be app length]. lia. Qed.

Lemma reply_bits l tx u fc f s n get mk : tx_ok l tx -> fcode_value f = fc -> 1 <= n <= 2000 -> s + n <= 65536 ->
  format_reply l tx (DUnit u) f (ser_bit_writer (s, n) get mk) =
    let '(pdu, lg) := bits_response fc (read_seq get mk s (N.to_nat n)) in (Ok (adu l tx u pdu), lg).
Proof.
  intros Htx Hf Hn Hs. pose proof (ser_bits_spec _ s n get mk Hn Hs (hdr_room l (txv tx) (dest_value (DUnit u)) (ffield_value (FValid f)))) as S.
  destruct (read_seq get mk s (N.to_nat n)) as [[vs|ex] lg] eqn:E; cbn [bits_response].
  - erewrite format_reply_ok; [rewrite S, Hf; reflexivity|assumption|rewrite S; reflexivity|].
    apply read_seq_length in E. cbn [length]. rewrite pack_length, E. lia.
  - erewrite format_reply_exc; [rewrite S, Hf; reflexivity|assumption|rewrite S; reflexivity].
Qed.

Lemma reply_regs l tx u fc f s n get mk : tx_ok l tx -> fcode_value f = fc -> 1 <= n <= 125 -> s + n <= 65536 ->
  format_reply l tx (DUnit u) f (ser_register_writer (s, n) get mk) =
    let '(pdu, lg) := regs_response fc (read_seq get mk s (N.to_nat n)) in (Ok (adu l tx u pdu), lg).
Proof.
  intros Htx Hf Hn Hs. pose proof (ser_regs_spec _ s n get mk Hn Hs (hdr_room l (txv tx) (dest_value (DUnit u)) (ffield_value (FValid f)))) as S.
  destruct (read_seq get mk s (N.to_nat n)) as [[vs|ex] lg] eqn:E; cbn [regs_response].
  - erewrite format_reply_ok; [rewrite S, Hf; reflexivity|assumption|rewrite S; reflexivity|].
    apply read_seq_length in E. cbn [length]. rewrite flat_map_be_length, E. lia.
  - erewrite format_reply_exc; [rewrite S, Hf; reflexivity|assumption|rewrite S; reflexivity].
Qed.

Lemma reply_write l tx u fc f res a b : tx_ok l tx -> fcode_value f = fc ->
  write_result l tx (DUnit u) f res (ser_u16_pair a b) = Ok (adu l tx u (write_response fc res (be a ++ be b))).
Proof.
  intros Htx Hf. unfold write_result, write_response. destruct res as [ex|].
  - rewrite format_ex_ok by assumption. cbn [ffield_value dest_value]. rewrite Hf. reflexivity.
  - erewrite format_reply_ok with (bs := be a ++ be b); [rewrite Hf; reflexivity|assumption| |cbn; lia].
    unfold ser_u16_pair. cbn [fst]. pose proof (hdr_room l (txv tx) (dest_value (DUnit u)) (ffield_value (FValid f))) as Hw.
    rewrite wr_u16_be_ok by lia. rewrite wr_u16_be_ok by (unfold wapp; cbn [w_out w_cap]; rewrite app_length; cbn [length Cursor.be16]; lia).
    cbn [wr of_option]. rewrite wapp_app. reflexivity.
Qed.

Lemma get_reply_spec l tx u h st r : tx_ok l tx -> req_wf r ->
  get_reply H l tx (DUnit u) h st r =
    let '(st', pdu, lg) := ref_exec H (fcode_value (get_function r)) h st (to_spec r) in (Ok (adu l tx u pdu), st', lg).
Proof.
  intros Htx Hwf. destruct r as [[s n]|[s n]|[s n]|[s n]|i b|i v|[s n] bytes|[s n] bytes];
    cbn [req_wf fst snd] in Hwf; cbn [get_reply get_function to_spec ref_exec fst snd fcode_value].
  - rewrite (reply_bits l tx u 1) by (try reflexivity; tauto).
    destruct (bits_response 1 _) as [pdu lg]. reflexivity.
  - rewrite (reply_bits l tx u 2) by (try reflexivity; tauto).
    destruct (bits_response 2 _) as [pdu lg]. reflexivity.
  - rewrite (reply_regs l tx u 3) by (try reflexivity; tauto).
    destruct (regs_response 3 _) as [pdu lg]. reflexivity.
  - rewrite (reply_regs l tx u 4) by (try reflexivity; tauto).
    destruct (regs_response 4 _) as [pdu lg]. reflexivity.
  - cbn [apply_write write_call]. destruct (write_single_coil H st i b) as [st' res].
    rewrite (reply_write l tx u 5) by (try reflexivity; assumption). destruct b; reflexivity.
  - cbn [apply_write write_call]. destruct (write_single_register H st i v) as [st' res].
    rewrite (reply_write l tx u 6) by (try reflexivity; assumption). reflexivity.
  - destruct Hwf as (Hn & Hs & Hlen). rewrite bit_items_spec by assumption.
    cbn [apply_write write_call]. rewrite bits_of_length, N2Nat.id.
    destruct (write_multiple_coils H st s n (indexed s (bits_of n bytes))) as [st' res].
    rewrite (reply_write l tx u 15) by (try reflexivity; assumption). reflexivity.
  - destruct Hwf as (Hn & Hs & Hlen & Hb). rewrite reg_items_spec by assumption.
    cbn [apply_write write_call]. rewrite (regs_of_length bytes (N.to_nat n)) by assumption. rewrite N2Nat.id.
    destruct (write_multiple_registers H st s n (indexed s (regs_of bytes))) as [st' res].
    rewrite (reply_write l tx u 16) by (try reflexivity; assumption). reflexivity.
Qed.

Lemma execute_spec u st r : req_wf r -> broadcast_supported (get_function r) = true ->
  execute H u st r = Ok (fst (apply_write H st (to_spec r)), write_call u (to_spec r)).
Proof.
  intros Hwf Hbc. destruct r as [[s n]|[s n]|[s n]|[s n]|i b|i v|[s n] bytes|[s n] bytes];
    cbn [get_function broadcast_supported] in Hbc; try discriminate;
    cbn [req_wf fst snd] in Hwf; cbn [execute to_spec apply_write write_call fst snd].
  - reflexivity.
  - reflexivity.
  - destruct Hwf as (Hn & Hs & Hlen). rewrite bit_items_spec by assumption. rewrite bits_of_length, N2Nat.id. reflexivity.
  - destruct Hwf as (Hn & Hs & Hlen & Hb). rewrite reg_items_spec by assumption.
    rewrite (regs_of_length bytes (N.to_nat n)) by assumption. rewrite N2Nat.id. reflexivity.
Qed.

Lemma execute_all_spec r : req_wf r -> broadcast_supported (get_function r) = true ->
  forall m g, execute_all H m g r = Ok (apply_all H m g (to_spec r)).
Proof.
  intros Hwf Hbc. induction m as [|[u h] rest IH]; intros g; [reflexivity|].
  cbn [execute_all apply_all]. rewrite execute_spec by assumption. rewrite IH.
  destruct (apply_all H rest (sset g h (fst (apply_write H (g h) (to_spec r)))) (to_spec r)) as [g' lg]. reflexivity.
Qed.

Lemma broadcast_is_write r : broadcast_supported (get_function r) = is_write (to_spec r).
Proof. destruct r; reflexivity. Qed.

Lemma is_authorized_spec a u r : req_wf r -> is_authorized a u r = Ok (authorize a u (to_spec r)).
Proof.
  intros Hwf. destruct a as [|p role]; [reflexivity|].
  destruct r as [[s n]|[s n]|[s n]|[s n]|i b|i v|[s n] bytes|[s n] bytes]; cbn [req_wf fst snd] in Hwf; try reflexivity.
  - destruct Hwf as (Hn & Hs & Hlen). unfold is_authorized, authorize.
    cbn [get_function authz_dispatch request_field cb_kind to_spec kind_of arg_of fst snd].
    rewrite bits_of_length, N2Nat.id. reflexivity.
  - destruct Hwf as (Hn & Hs & Hlen & Hb). unfold is_authorized, authorize.
    cbn [get_function authz_dispatch request_field cb_kind to_spec kind_of arg_of fst snd].
    rewrite (regs_of_length bytes (N.to_nat n)) by assumption. rewrite N2Nat.id. reflexivity.
Qed.

(* what the reader delivers, the hypothesis of every C01 / C02 / C08 / C17 theorem: PDU bytes are bytes, and a
   TCP frame carries a transaction id (format_mbap would panic without) *)
Definition frame_ok (l : link) (fr : frame) : Prop := tx_ok l (f_tx fr) /\ Forall byte (f_pdu fr).

(* Base/ServerRun.v's ok_result at the server's error type *)
Definition lift3 {A B C} (x : A * B * C) : outcome serr A * B * C := let '(a, b, c) := x in (Ok a, b, c).

Theorem handle_frame_refines l a units fr : frame_ok l fr ->
  handle_frame H l a units fr = lift3 (ref_handle_frame H l a units fr).
Proof.
  intros [Htx Hb]. unfold handle_frame, ref_handle_frame.
  destruct (f_pdu fr) as [|fv body] eqn:Epdu; [reflexivity|].
  inversion Hb as [|? ? Hfv Hbody]; subst.
  destruct (fcode_get fv) as [f|] eqn:Efc.
  - apply fcode_get_value in Efc. subst fv. pose proof (parse_decode f body Hbody) as P. unfold parse_rel in P.
    destruct (parse f body) as [r|].
    + destruct P as (Hdec & Hwf & Hfn). rewrite Hdec.
      rewrite is_authorized_spec by assumption.
      destruct (authorize a (dest_value (f_dest fr)) (to_spec r)) as [ok alog].
      destruct ok; cbn [negb].
      * destruct (f_dest fr) as [u|] eqn:Ed.
        -- destruct (lookup u (u_map units)) as [h|]; [|reflexivity].
           rewrite get_reply_spec by assumption. rewrite Hfn.
           destruct (ref_exec H (fcode_value f) h (u_store units h) (to_spec r)) as [[st' pdu] lg]. reflexivity.
        -- rewrite broadcast_is_write. destruct (is_write (to_spec r)) eqn:W; [|reflexivity].
           rewrite execute_all_spec by (try assumption; rewrite broadcast_is_write; assumption).
           destruct (apply_all H (u_map units) (u_store units) (to_spec r)) as [g' lg]. reflexivity.
      * unfold reply_with_error_generic. destruct (f_dest fr) as [u|]; cbn [dest_is_broadcast]; [|reflexivity].
        rewrite format_ex_ok by assumption. cbn [ffield_value dest_value lift3]. rewrite Hfn. reflexivity.
    + rewrite P. unfold reply_with_error_generic, is_served.
      destruct (f_dest fr) as [u|]; cbn [dest_is_broadcast lift3]; [|reflexivity].
      destruct (lookup u (u_map units)); [|reflexivity].
      rewrite format_ex_ok by assumption. reflexivity.
  - rewrite decode_unsupported by assumption. unfold reply_with_error_generic, is_served.
    destruct (f_dest fr) as [u|]; cbn [dest_is_broadcast lift3]; [|reflexivity].
    destruct (lookup u (u_map units)); [|reflexivity].
    rewrite format_ex_ok by assumption. reflexivity.
Qed.

Theorem session_refines l a : forall frames units, Forall (frame_ok l) frames ->
  session H l a units frames = (let '(rs, units', lg) := ref_session H l a units frames in (rs, units', lg, SOpen)).
Proof.
  induction frames as [|fr rest IH]; intros units Hall; [reflexivity|].
  inversion Hall as [|? ? Hfr Hrest]; subst. cbn [session ref_session].
  rewrite handle_frame_refines by assumption.
  destruct (ref_handle_frame H l a units fr) as [[reply units'] lg]. cbn [lift3].
  rewrite IH by assumption. destruct (ref_session H l a units' rest) as [[rs units''] lg']. reflexivity.
Qed.
End Refine.
