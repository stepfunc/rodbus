(* FramedReader::next_frame and the sessions built on it (Model/Reader.v), against a stream Spec, for ANY parser.
   Section Generic takes the parser as nine variables and its laws as hypotheses in four groups:
     base    one parse call against a state-indexed Spec `ref_from`: more bytes needed / frame / error / never panics
             (H_none, H_some, H_err, H_panic), with the bookkeeping that makes the loop terminate (need, cons_need)
     stable  a waiting parser asked again changes nothing (H_stable): cancel-safety
     tail    the Spec over s1 ++ s2 from the Spec over s1 and its incomplete last frame (H_rf_app ..): a connection that goes on
     after   what the Spec leaves after its first framing error (HA_init .. HA_len): the RTU server polling the same reader again
   and proves, per group:
     base    nf_ref (one call = one step of the Spec, for every chunk schedule), nf_cases (the same at the model's own fuel,
             with names), run_ref / run_ref_any, run_total, nf_no_panic
     stable  nf_app (a call over n1 ++ n2), nf_cancel_safe, run_st_app, run_st_pending, run_cancel_eq, session_cancel_safe
     tail    represents, run_represents, represents_step
     after   nf_after, run_resume_ref
   MbapProofs.v and RtuProofs.v instantiate it. Outside the section: a schedule as a stream (sbytes, sfin: an empty chunk is
   EOF), what a read leaves of a chunk (unread), which parser a reader holds (framing), the client's connections. *)
From Coq Require Import NArith List Arith Lia.
From Rodbus Require Import Base.Outcome Base.Frame Gen.RtuLengths Model.Buffer Model.Mbap Model.Rtu Model.Reader Spec.Framing Proofs.BufferProofs.
Import ListNotations.

Fixpoint sbytes (n : net) : list N :=
  match n with [] => [] | [] :: _ => [] | c :: n' => c ++ sbytes n' end.
Fixpoint sfin (n : net) (fi : fin) : fin :=
  match n with [] => fi | [] :: _ => FinEof | _ :: n' => sfin n' fi end.
Lemma sched_stream_eq n fi : sched_stream n fi = (sbytes n, sfin n fi).
Proof. induction n as [|c n IH]; [reflexivity|]. destruct c; [reflexivity|]. cbn [sched_stream sbytes sfin]. now rewrite IH. Qed.
Lemma sbytes_le n : length (sbytes n) <= length (concat n).
Proof. induction n as [|c n IH]; [cbn; lia|]. destruct c; cbn [sbytes concat]; rewrite ?app_length; cbn [length]; lia. Qed.
(* the fuel the model gives a run is enough for what is pending plus everything the schedule delivers *)
Lemma run_fuel_enough r n : buf_len (r_buf r) + length (sbytes n) + 1 < run_fuel r n.
Proof. pose proof (sbytes_le n). unfold run_fuel. lia. Qed.
Lemma sbytes_nonempty n : Forall (fun c => c <> []) n -> sbytes n = concat n /\ forall fi, sfin n fi = fi.
Proof.
  induction 1 as [|c n Hc Hn [IH1 IH2]]; [split; reflexivity|]. destruct c; [congruence|].
  cbn [sbytes sfin concat]. rewrite IH1. split; [reflexivity|exact IH2].
Qed.

Definition consf (f : frame) (r : list frame * ending) : list frame * ending := let '(fs, e) := r in (f :: fs, e).
Definition liftr (r : list frame * ending) : list item * ending := (map IFrame (fst r), snd r).
Lemma frames_of_map fs : frames_of (map IFrame fs) = fs.
Proof. induction fs as [|f fs IH]; [reflexivity|]. cbn. unfold frames_of in IH. now rewrite IH. Qed.
Lemma liftr_consf f r : liftr (consf f r) = (IFrame f :: fst (liftr r), snd (liftr r)).
Proof. destruct r; reflexivity. Qed.

Lemma liftr_inj r1 r2 : liftr r1 = liftr r2 -> r1 = r2.
Proof.
  destruct r1 as [l1 e1], r2 as [l2 e2]. unfold liftr. cbn [fst snd]. intros H. inversion H as [[Hm He]]. f_equal.
  clear -Hm. revert l2 Hm. induction l1 as [|x l1 IH]; intros [|y l2] Hm; try discriminate; [reflexivity|].
  cbn [map] in Hm. inversion Hm; subst. f_equal. now apply IH.
Qed.

Lemma nf_fuel_mono : forall f r n fi x, next_frame f r n fi = x -> snd x <> NfEnd EndOutOfFuel ->
  forall k, next_frame (f + k) r n fi = x.
Proof.
  induction f as [|f IH]; intros r n fi x E Hx k.
  - cbn [next_frame] in E. subst x. cbn [snd] in Hx. congruence.
  - cbn [next_frame Nat.add] in *. destruct (parser_parse (r_parser r) (r_buf r)) as [[p' b'] res].
    destruct res as [[fr|]|e|]; try exact E.
    destruct n as [|c n']; [exact E|].
    destruct (read_some b' c) as [b2 rs]. destruct rs as [j rest| |]; try exact E.
    destruct rest; apply IH; assumption.
Qed.

Lemma sbytes_app_le n1 n2 : length (sbytes (n1 ++ n2)) <= length (sbytes n1) + length (sbytes n2).
Proof. induction n1 as [|c n1 IH]; [cbn; lia|]. destruct c; cbn [app sbytes length]; [lia|]. rewrite !app_length. cbn [length]. lia. Qed.
Lemma sfin_pending_app n1 : sfin n1 FinPending = FinPending ->
  forall n2 fi, sbytes (n1 ++ n2) = sbytes n1 ++ sbytes n2 /\ sfin (n1 ++ n2) fi = sfin n2 fi.
Proof.
  induction n1 as [|c n1 IH]; intros H n2 fi; [split; reflexivity|]. destruct c; [discriminate|].
  cbn [sfin] in H. destruct (IH H n2 fi) as [E1 E2]. cbn [app sbytes sfin]. rewrite E1, E2, <- app_assoc. split; reflexivity.
Qed.

Lemma run_reader_st_snd : forall fuel r n fi, snd (run_reader_st fuel r n fi) = run_reader fuel false r n fi.
Proof.
  induction fuel as [|fuel IH]; intros r n fi; [reflexivity|]. cbn [run_reader_st run_reader].
  destruct (next_frame (nf_fuel n) r n fi) as [[r' n'] res]. destruct res as [f|e].
  - specialize (IH r' n' fi). destruct (run_reader_st fuel r' n' fi) as [r'' [l e]]. cbn [snd] in *. now rewrite <- IH.
  - destruct e; reflexivity.
Qed.

Definition framing (p : parser) : option ptype := match p with PTcp _ => None | PRtu t _ => Some t end.
Lemma next_frame_framing : forall fuel r n fi, framing (r_parser (fst (fst (next_frame fuel r n fi)))) = framing (r_parser r).
Proof.
  induction fuel as [|fuel IH]; intros r n fi; [reflexivity|]. cbn [next_frame].
  assert (Hp : framing (fst (fst (parser_parse (r_parser r) (r_buf r)))) = framing (r_parser r)).
  { destruct (r_parser r) as [st|t st]; cbn [parser_parse]; [destruct (mbap_parse st _) as [[? ?] ?]|destruct (rtu_parse t st _) as [[? ?] ?]]; reflexivity. }
  destruct (parser_parse (r_parser r) (r_buf r)) as [[p' b'] res]. cbn [fst] in Hp.
  destruct res as [[f|]|e|]; cbn [fst r_parser]; try exact Hp; [|now destruct p'].
  destruct n as [|c n']; [now destruct (read_some b' [])|].
  destruct (read_some b' c) as [b2 rs]. destruct rs as [k rest| |]; cbn [fst r_parser]; try exact Hp.
  destruct rest; rewrite IH; exact Hp.
Qed.
Lemma run_reader_st_framing : forall fuel r n fi, framing (r_parser (fst (run_reader_st fuel r n fi))) = framing (r_parser r).
Proof.
  induction fuel as [|fuel IH]; intros r n fi; [reflexivity|]. cbn [run_reader_st].
  pose proof (next_frame_framing (nf_fuel n) r n fi) as H.
  destruct (next_frame (nf_fuel n) r n fi) as [[r' n'] res]. cbn [fst] in H. destruct res as [f|e]; [|exact H].
  specialize (IH r' n' fi). destruct (run_reader_st fuel r' n' fi) as [r'' [l e]]. cbn [fst] in *. now rewrite IH.
Qed.

(* ClientLoop::run resets its one reader when a connection starts: every connection is a session of its own *)
Theorem client_connections_fresh k : forall conns r, framing (r_parser r) = framing (r_parser (reader_new k)) ->
  client_connections true r conns = map (fun c => run_session k false (fst c) (snd c)) conns.
Proof.
  induction conns as [|[n fi] conns IH]; intros r Hr; [reflexivity|]. cbn [client_connections map fst snd].
  assert (Hreset : reader_reset r = reader_new k) by (destruct r as [[st|t st] b], k; try discriminate; inversion Hr; reflexivity).
  rewrite Hreset. unfold run_session. rewrite <- run_reader_st_snd.
  pose proof (run_reader_st_framing (run_fuel (reader_new k) n) (reader_new k) n fi) as Ht.
  destruct (run_reader_st (run_fuel (reader_new k) n) (reader_new k) n fi) as [r' res]. cbn [fst snd] in *. now rewrite (IH r' Ht).
Qed.

(* what a read leaves of a chunk goes back to the head of the schedule *)
Definition unread (r : list N) (n : net) : net := match r with [] => n | _ => r :: n end.
Lemma unread_sbytes r n : sbytes (unread r n) = r ++ sbytes n. Proof. now destruct r. Qed.
Lemma unread_sfin r n fi : sfin (unread r n) fi = sfin n fi. Proof. now destruct r. Qed.
Lemma unread_concat r n : concat (unread r n) = r ++ concat n. Proof. now destruct r. Qed.
Lemma unread_app r n n2 : unread r n ++ n2 = unread r (n ++ n2). Proof. now destruct r. Qed.
Lemma unread_Forall (P : list N -> Prop) r n : P r -> Forall P n -> Forall P (unread r n).
Proof. destruct r; [auto|now constructor]. Qed.

Lemma consume_split k b t : k <= buf_len b ->
  b_pend b ++ t = firstn k (b_pend b) ++ b_pend (consume k b) ++ t /\
  length (b_pend (consume k b) ++ t) + k = length (b_pend b ++ t).
Proof.
  intros H. cbn [consume b_pend]. split; [now rewrite app_assoc, firstn_skipn|].
  rewrite !app_length, skipn_length. unfold buf_len in H. lia.
Qed.

Section Generic.
Variable pst : Type.                                (* parser states *)
Variable mk : pst -> parser.                        (* the reader's parser in a state: PTcp, PRtu p *)
Variable pp : pst -> buf -> pst * buf * presult.    (* one parse call *)
Variable init : pst.                                (* the state after reset and after every frame *)
Variable st_ok : pst -> Prop.                       (* the states a run can reach *)
Variable need : pst -> nat.                         (* bytes a state wants pending before it can move on *)
(* lower bound on the bytes consumed from a state until the next frame or error; H_cons_init is why runs terminate *)
Variable cons_need : pst -> nat.
(* the stream Spec; the first argument is Spec fuel: any number above the length of the stream *)
Variable rf : nat -> list N -> fin -> list frame * ending.
(* the Spec for the rest of a stream of which the parser has already taken what brought it to the given state *)
Variable ref_from : nat -> pst -> list N -> fin -> list frame * ending.

(* an invariant of the bytes (e.g. "every element is below 256"), closed under the list operations the reader performs *)
Variable okl : list N -> Prop.
Hypothesis okl_nil : okl [].
Hypothesis okl_app : forall a c, okl a -> okl c -> okl (a ++ c).
Hypothesis okl_firstn : forall k a, okl a -> okl (firstn k a).
Hypothesis okl_skipn : forall k a, okl a -> okl (skipn k a).

Hypothesis H_mk : forall st b, parser_parse (mk st) b = let '(st', b', r) := pp st b in (mk st', b', r).
Hypothesis H_reset : forall st, parser_reset (mk st) = mk init.
Hypothesis H_init_ok : st_ok init.
Hypothesis H_init : forall F s fi, ref_from F init s fi = rf F s fi.
Hypothesis H_cons_init : 1 <= cons_need init.
Hypothesis H_need_cap : forall st, st_ok st -> need st <= cap.
Hypothesis H_stuck : forall st p F fi, st_ok st -> length p < need st -> 0 < F -> ref_from F st p fi = ([], end_of fi).
Hypothesis H_none : forall st b st' b', wf b -> okl (b_pend b) -> st_ok st -> pp st b = (st', b', Ok None) ->
  st_ok st' /\ buf_len b' < need st' /\
  (exists k, b' = consume k b /\ k <= buf_len b /\ cons_need st <= k + cons_need st') /\
  (forall fut F fi, length (b_pend b ++ fut) < F -> ref_from F st (b_pend b ++ fut) fi = ref_from F st' (b_pend b' ++ fut) fi).
Hypothesis H_some : forall st b st' b' f, wf b -> okl (b_pend b) -> st_ok st -> pp st b = (st', b', Ok (Some f)) ->
  st' = init /\ (exists k, b' = consume k b /\ k <= buf_len b /\ cons_need st <= k) /\
  (forall fut F fi, length (b_pend b ++ fut) < F -> ref_from F st (b_pend b ++ fut) fi = consf f (rf F (b_pend b' ++ fut) fi)).
Hypothesis H_err : forall st b st' b' e, wf b -> okl (b_pend b) -> st_ok st -> pp st b = (st', b', Err e) ->
  (exists k, b' = consume k b /\ k <= buf_len b /\ cons_need st <= k) /\
  (forall fut F fi, length (b_pend b ++ fut) < F -> ref_from F st (b_pend b ++ fut) fi = ([], EndBad e)).
Hypothesis H_panic : forall st b st' b', wf b -> okl (b_pend b) -> st_ok st -> pp st b <> (st', b', Panic).

Collection base := okl_nil okl_app okl_firstn okl_skipn H_mk H_reset H_init_ok H_init H_cons_init H_need_cap H_stuck H_none H_some H_err H_panic.

Lemma okl_sbytes n : Forall okl n -> okl (sbytes n).
Proof using okl_nil okl_app.
  induction 1 as [|c n Hc Hn IH]; [exact okl_nil|]. destruct c; [exact okl_nil|]. cbn [sbytes]. now apply okl_app.
Qed.


Definition rd (st : pst) (b : buf) : reader := {| r_parser := mk st; r_buf := b |}.

(* what one call returns, in terms of the stream s it saw; nf_spec below says the same with names *)
Definition nf_post (F : nat) (st : pst) (b : buf) (n : net) (fi : fin) (res : reader * net * nf_result) : Prop :=
  let s := b_pend b ++ sbytes n in
  match res with
  | (r', n', NfFrame f) =>
      exists b', r' = rd init b' /\ wf b' /\ okl (b_pend b') /\ Forall okl n' /\ sfin n' fi = sfin n fi /\
        ref_from F st s (sfin n fi) = consf f (rf F (b_pend b' ++ sbytes n') (sfin n fi)) /\
        length (b_pend b' ++ sbytes n') + cons_need st <= length s /\
        (exists consumed, s = consumed ++ b_pend b' ++ sbytes n')
  | (r', n', NfEnd (EndBad e)) =>
      ref_from F st s (sfin n fi) = ([], EndBad e) /\
      exists b', r' = rd init b' /\ wf b' /\ okl (b_pend b') /\ Forall okl n' /\ length (b_pend b' ++ sbytes n') + cons_need st <= length s /\
        (exists consumed, s = consumed ++ b_pend b' ++ sbytes n') /\ sfin n' fi = sfin n fi
  | (_, _, NfEnd e) => e <> EndPanic /\ e <> EndOutOfFuel /\ ref_from F st s (sfin n fi) = ([], e)
  end.

(* one turn of the loop that does not return: the parser wants more and the source has a non-empty chunk c ready *)
Lemma nf_read st b st' b' c : wf b -> okl (b_pend b) -> st_ok st -> pp st b = (st', b', Ok None) -> c <> [] -> okl c ->
  exists b'' r, wf b'' /\ okl (b_pend b'') /\ okl r /\ length r < length c /\
    (forall n, b_pend b' ++ sbytes (c :: n) = b_pend b'' ++ sbytes (unread r n)) /\
    forall fuel n fi, next_frame (S fuel) (rd st b) (c :: n) fi = next_frame fuel (rd st' b'') (unread r n) fi.
Proof.
  intros Hwf Hok Hst Ep Hc Hokc. destruct (H_none _ _ _ _ Hwf Hok Hst Ep) as (Hst' & Hlt & (k & -> & Hk & _) & _).
  destruct (read_some_ok (consume k b) c (consume_wf _ _ Hwf Hk)) as (j & b'' & Hrs & Hj & Hp & Hwf'');
    [specialize (H_need_cap _ Hst'); lia|exact Hc|].
  exists b'', (skipn j c). split; [exact Hwf''|].
  split; [rewrite Hp; apply okl_app; [now apply okl_skipn|now apply okl_firstn]|]. split; [now apply okl_skipn|].
  split; [rewrite skipn_length; lia|]. split.
  - intros n. rewrite unread_sbytes, Hp, <- !app_assoc, (app_assoc (firstn j c)), firstn_skipn. now destruct c.
  - intros fuel n fi. cbn [next_frame rd r_parser r_buf]. rewrite H_mk, Ep, Hrs. now destruct (skipn j c).
Qed.

(* a parser that wants more always leaves room for it: fewer than `cap` bytes stay pending, so the next non-empty read takes
   at least one byte (C05_never_full, for any parser with the laws) *)
Lemma never_full st b st' b' : wf b -> okl (b_pend b) -> st_ok st -> pp st b = (st', b', Ok None) ->
  buf_len b' < cap /\ st_ok st' /\ wf b' /\
  forall c, c <> [] -> exists k b'', read_some b' c = (b'', RsOk k (skipn k c)) /\ 1 <= k <= length c.
Proof using base.
  intros Hwf Hok Hst Ep. destruct (H_none _ _ _ _ Hwf Hok Hst Ep) as (Hst' & Hlt & (k & -> & Hk & _) & _).
  pose proof (H_need_cap _ Hst'). pose proof (consume_wf _ _ Hwf Hk) as Hwf'. split; [lia|]. split; [assumption|]. split; [assumption|].
  intros c Hc. destruct (read_some_ok (consume k b) c Hwf' ltac:(lia) Hc) as (j & b'' & H1 & H2 & _). now exists j, b''.
Qed.

(* the turn on which the stream is used up: the schedule is empty or its head is an empty chunk (a 0-byte read) *)
Lemma nf_dry fuel st b st' b' n fi : wf b -> okl (b_pend b) -> st_ok st -> pp st b = (st', b', Ok None) -> hd [] n = [] ->
  next_frame (S fuel) (rd st b) n fi = (rd st' (prep b'), tl n, NfEnd (end_of (sfin n fi))).
Proof.
  intros Hwf Hok Hst Ep Hn. destruct (H_none _ _ _ _ Hwf Hok Hst Ep) as (_ & _ & (k & -> & Hk & _) & _).
  cbn [next_frame rd r_parser r_buf]. rewrite H_mk, Ep.
  destruct n as [|c n]; [|cbn [hd] in Hn; subst c]; rewrite (read_some_nil_prep _ (consume_wf _ _ Hwf Hk)); [now destruct fi|reflexivity].
Qed.

Theorem nf_ref : forall fuel st b n fi F,
  wf b -> okl (b_pend b) -> Forall okl n -> st_ok st -> length (concat n) < fuel -> length (b_pend b ++ sbytes n) < F ->
  nf_post F st b n fi (next_frame fuel (rd st b) n fi).
Proof using All.
  induction fuel as [|fuel IH]; intros st b n fi F Hwf Hok Hokn Hst Hfuel HF; [lia|].
  assert (Hokc : forall k, okl (b_pend (consume k b))) by (intros k; now apply okl_skipn).
  destruct (pp st b) as [[st' b'] r] eqn:Ep. destruct r as [[f|]|e|].
  - destruct (H_some _ _ _ _ _ Hwf Hok Hst Ep) as (-> & (k & -> & Hk & Hck) & Href).
    destruct (consume_split k b (sbytes n) Hk) as [Hs Hl].
    cbn [next_frame rd r_parser r_buf]. rewrite H_mk, Ep. exists (consume k b).
    split; [reflexivity|]. split; [now apply consume_wf|]. split; [apply Hokc|]. split; [exact Hokn|]. split; [reflexivity|].
    split; [now apply Href|]. split; [lia|]. now exists (firstn k (b_pend b)).
  - destruct (H_none _ _ _ _ Hwf Hok Hst Ep) as (Hst' & Hstuck & (k & Eb & Hk & Hck) & Href).
    destruct (consume_split k b (sbytes n) Hk) as [Hs Hl]. rewrite <- Eb in Hs, Hl.
    assert (Hr : forall fi', ref_from F st (b_pend b ++ []) fi' = ([], end_of fi')).
    { intros fi'. rewrite Href by (rewrite app_length in *; cbn [length]; lia). apply H_stuck; [assumption|now rewrite app_nil_r|lia]. }
    destruct n as [|[|x c] n'].
    + rewrite (nf_dry fuel st b st' b' [] fi Hwf Hok Hst Ep eq_refl). destruct fi; repeat split; try discriminate; apply Hr.
    + rewrite (nf_dry fuel st b st' b' ([] :: n') fi Hwf Hok Hst Ep eq_refl). repeat split; try discriminate; apply Hr.
    + apply Forall_cons_iff in Hokn as [Hokx Hokn'].
      destruct (nf_read st b st' b' (x :: c) Hwf Hok Hst Ep ltac:(discriminate) Hokx) as (b'' & r & Hwf'' & Hok'' & Hokr & Hlr & Heq & Hnf).
      rewrite Hnf. specialize (Heq n'). rewrite Heq in Hl. cbn [concat] in Hfuel. rewrite app_length in Hfuel.
      specialize (IH st' b'' (unread r n') fi F Hwf'' Hok'' (unread_Forall okl r n' Hokr Hokn') Hst'
                    ltac:(rewrite unread_concat, app_length; lia) ltac:(lia)).
      unfold nf_post in *. rewrite unread_sfin in IH. rewrite (Href _ F _ HF), Heq. cbn [sfin].
      destruct (next_frame fuel (rd st' b'') (unread r n') fi) as [[r1 n2] res]. destruct res as [f|e].
      * destruct IH as (b3 & -> & Hwf3 & Hok3 & Hokn3 & Hsf3 & Hr3 & Hl3 & (cs & Hcs)). exists b3.
        repeat split; try assumption; [lia|]. exists (firstn k (b_pend b) ++ cs). now rewrite Hs, Heq, Hcs, app_assoc.
      * destruct e; try exact IH.
        destruct IH as (Hr3 & b3 & -> & Hwf3 & Hok3 & Hokn3 & Hl3 & (cs & Hcs) & Hsf3). split; [exact Hr3|]. exists b3.
        repeat split; try assumption; [lia|]. exists (firstn k (b_pend b) ++ cs). now rewrite Hs, Heq, Hcs, app_assoc.
  - destruct (H_err _ _ _ _ _ Hwf Hok Hst Ep) as ((k & -> & Hk & Hck) & Href).
    destruct (consume_split k b (sbytes n) Hk) as [Hs Hl].
    cbn [next_frame rd r_parser r_buf]. rewrite H_mk, Ep, H_reset. split; [now apply Href|]. exists (consume k b).
    split; [reflexivity|]. split; [now apply consume_wf|]. split; [apply Hokc|]. split; [exact Hokn|].
    split; [lia|]. split; [now exists (firstn k (b_pend b))|reflexivity].
  - exfalso. exact (H_panic _ _ _ _ Hwf Hok Hst Ep).
Qed.

(* fuel a run needs from state st: one call per frame, each later frame takes >= 1 byte, one call for the ending *)
Definition rmeasure (st : pst) (b : buf) (n : net) : nat := length (b_pend b ++ sbytes n) + (1 - cons_need st).

(* nf_post by name instead of by position. After a call that returned a frame or a framing error the parser is in `init`
   over buffer b' and schedule n', and: *)
Set Implicit Arguments.
Record nf_next (st : pst) (b : buf) (n : net) (fi : fin) (b' : buf) (n' : net) : Prop := {
  nx_wf : wf b';
  nx_okl : okl (b_pend b');
  nx_okn : Forall okl n';
  nx_sfin : sfin n' fi = sfin n fi;
  nx_len : length (b_pend b' ++ sbytes n') + cons_need st <= length (b_pend b ++ sbytes n);
  nx_measure : rmeasure init b' n' < rmeasure st b n;
  nx_split : exists consumed, b_pend b ++ sbytes n = consumed ++ b_pend b' ++ sbytes n' }.
Unset Implicit Arguments.
Inductive nf_spec (F : nat) (st : pst) (b : buf) (n : net) (fi : fin) : reader * net * nf_result -> Prop :=
| NfsFrame b' n' f : nf_next st b n fi b' n' ->
    ref_from F st (b_pend b ++ sbytes n) (sfin n fi) = consf f (rf F (b_pend b' ++ sbytes n') (sfin n fi)) ->
    nf_spec F st b n fi (rd init b', n', NfFrame f)
| NfsBad b' n' e : nf_next st b n fi b' n' ->
    ref_from F st (b_pend b ++ sbytes n) (sfin n fi) = ([], EndBad e) ->
    nf_spec F st b n fi (rd init b', n', NfEnd (EndBad e))
| NfsEnd r' n' e : (forall x, e <> EndBad x) -> e <> EndPanic -> e <> EndOutOfFuel ->
    ref_from F st (b_pend b ++ sbytes n) (sfin n fi) = ([], e) ->
    nf_spec F st b n fi (r', n', NfEnd e).

Lemma nf_post_spec F st b n fi res : nf_post F st b n fi res -> nf_spec F st b n fi res.
Proof.
  assert (Hm : forall b' n', length (b_pend b' ++ sbytes n') + cons_need st <= length (b_pend b ++ sbytes n) ->
            rmeasure init b' n' < rmeasure st b n) by (intros b' n' Hl; unfold rmeasure; pose proof H_cons_init; lia).
  destruct res as [[r' n'] [f|e]]; unfold nf_post; cbv zeta.
  - intros (b' & -> & Hwf' & Hok' & Hokn' & Hsf & Hr & Hl & Hc). apply NfsFrame; [constructor|]; auto.
  - destruct e as [e| | | |]; try (intros (H1 & H2 & Hr); apply NfsEnd; (discriminate || assumption)).
    intros (Hr & b' & -> & Hwf' & Hok' & Hokn' & Hl & Hc & Hsf). apply NfsBad; [constructor|]; auto.
Qed.

(* one call at the model's own fuel, as the runs make it *)
Lemma nf_cases st b n fi F : wf b -> okl (b_pend b) -> Forall okl n -> st_ok st -> length (b_pend b ++ sbytes n) < F ->
  nf_spec F st b n fi (next_frame (nf_fuel n) (rd st b) n fi).
Proof using base.
  intros Hwf Hok Hokn Hst HF. apply nf_post_spec, nf_ref; try assumption. pose proof (sbytes_le n). unfold nf_fuel. lia.
Qed.

Lemma run_ref_any : forall G st b n fi F,
  wf b -> okl (b_pend b) -> Forall okl n -> st_ok st ->
  rmeasure st b n < G -> length (b_pend b ++ sbytes n) < F ->
  run_reader G false (rd st b) n fi = liftr (ref_from F st (b_pend b ++ sbytes n) (sfin n fi)).
Proof using base.
  induction G as [|G IH]; intros st b n fi F Hwf Hok Hokn Hst HG HF; [lia|]. cbn [run_reader].
  destruct (nf_cases st b n fi F Hwf Hok Hokn Hst HF) as [b' n' f Hx Hr|b' n' e Hx Hr|r' n' e Hnb _ _ Hr]; rewrite Hr.
  - pose proof (nx_measure Hx). pose proof (nx_len Hx).
    rewrite (IH init b' n' fi F (nx_wf Hx) (nx_okl Hx) (nx_okn Hx) H_init_ok), H_init, (nx_sfin Hx) by lia.
    now destruct (rf F (b_pend b' ++ sbytes n') (sfin n fi)).
  - reflexivity.
  - destruct e; [now destruct (Hnb e)|reflexivity..].
Qed.

Theorem run_ref : forall fuel b n fi F,
  wf b -> okl (b_pend b) -> Forall okl n -> length (b_pend b ++ sbytes n) < fuel -> length (b_pend b ++ sbytes n) < F ->
  run_reader fuel false (rd init b) n fi = liftr (rf F (b_pend b ++ sbytes n) (sfin n fi)).
Proof using All.
  intros fuel b n fi F Hwf Hok Hokn Hfu HF. rewrite <- H_init. apply run_ref_any; try assumption.
  unfold rmeasure. pose proof H_cons_init. lia.
Qed.

Theorem run_total : forall fuel resume b n fi,
  wf b -> okl (b_pend b) -> Forall okl n -> length (b_pend b ++ sbytes n) < fuel ->
  snd (run_reader fuel resume (rd init b) n fi) <> EndPanic /\ snd (run_reader fuel resume (rd init b) n fi) <> EndOutOfFuel.
Proof using base.
  induction fuel as [|fuel IH]; intros resume b n fi Hwf Hok Hokn Hfu; [lia|]. cbn [run_reader]. pose proof H_cons_init as Hci.
  destruct (nf_cases init b n fi _ Hwf Hok Hokn H_init_ok (Nat.lt_succ_diag_r _)) as [b' n' f Hx _|b' n' e Hx _|r' n' e Hnb Hnp Hnf _].
  - pose proof (nx_len Hx). specialize (IH resume b' n' fi (nx_wf Hx) (nx_okl Hx) (nx_okn Hx) ltac:(lia)).
    now destruct (run_reader fuel resume (rd init b') n' fi).
  - destruct resume; [|cbn [snd]; split; discriminate].
    pose proof (nx_len Hx). specialize (IH true b' n' fi (nx_wf Hx) (nx_okl Hx) (nx_okn Hx) ltac:(lia)).
    now destruct (run_reader fuel true (rd init b') n' fi).
  - destruct e; [now destruct (Hnb e)|cbn [snd]; split; congruence..].
Qed.

Corollary session_ref : forall n fi F, Forall okl n -> length (sbytes n) < F ->
  run_reader (run_fuel (rd init buf_new) n) false (rd init buf_new) n fi = liftr (rf F (sbytes n) (sfin n fi)).
Proof using base.
  intros n fi F Hokn HF. rewrite (run_ref _ buf_new n fi F); [reflexivity|apply wf_new|exact okl_nil|exact Hokn| |exact HF].
  pose proof (run_fuel_enough (rd init buf_new) n) as H. cbn [rd r_buf buf_new b_pend buf_len app length] in *. lia.
Qed.

Corollary session_total : forall resume n fi, Forall okl n ->
  snd (run_reader (run_fuel (rd init buf_new) n) resume (rd init buf_new) n fi) <> EndPanic /\
  snd (run_reader (run_fuel (rd init buf_new) n) resume (rd init buf_new) n fi) <> EndOutOfFuel.
Proof using base.
  intros resume n fi Hokn. apply run_total; [apply wf_new|exact okl_nil|exact Hokn|].
  pose proof (run_fuel_enough (rd init buf_new) n) as H. cbn [rd r_buf buf_new b_pend buf_len app length] in *. lia.
Qed.

Corollary nf_no_panic fuel st b n fi : wf b -> okl (b_pend b) -> Forall okl n -> st_ok st -> length (concat n) < fuel ->
  snd (next_frame fuel (rd st b) n fi) <> NfEnd EndPanic /\ snd (next_frame fuel (rd st b) n fi) <> NfEnd EndOutOfFuel.
Proof using All.
  intros Hwf Hok Hokn Hst Hfu.
  pose proof (nf_ref fuel st b n fi (S (length (b_pend b ++ sbytes n))) Hwf Hok Hokn Hst Hfu ltac:(lia)) as H.
  unfold nf_post in H. destruct (next_frame fuel (rd st b) n fi) as [[r' n'] res]. cbn [snd].
  destruct res as [f|e]; [split; discriminate|]. destruct e; try (split; discriminate); destruct H as (H1 & H2 & _); congruence.
Qed.

(* Compositionality and cancel-safety. next_frame is one branch of a tokio::select! in SessionTask::run_one, ClientLoop::poll and
   ClientLoop::execute_request: when another branch fires, the future is dropped while it waits
   for bytes and a NEW call starts later from the reader's state. An abandoned call is a call over
   a schedule that ends `FinPending` with result EndPending. Everything below holds for every
   split of a schedule at a chunk boundary. *)

Hypothesis H_stable : forall st b, wf b -> okl (b_pend b) -> st_ok st -> buf_len b < need st -> pp st b = (st, b, Ok None).

Collection stable := base H_stable.

Lemma nf_fuel_indep f1 f2 st b n fi : wf b -> okl (b_pend b) -> Forall okl n -> st_ok st ->
  length (concat n) < f1 -> length (concat n) < f2 ->
  next_frame f1 (rd st b) n fi = next_frame f2 (rd st b) n fi.
Proof using All.
  intros Hwf Hok Hokn Hst H1 H2.
  destruct (Nat.le_ge_cases f1 f2) as [Hle|Hle].
  - replace f2 with (f1 + (f2 - f1)) by lia. symmetry. apply nf_fuel_mono; [reflexivity|now apply nf_no_panic].
  - replace f1 with (f2 + (f1 - f2)) by lia. apply nf_fuel_mono; [reflexivity|now apply nf_no_panic].
Qed.

(* the reader an abandoned call leaves behind. `prep b = b`: the call had already done read_some's reset / compaction
   when it was dropped *)
Definition waiting (r : reader) : Prop :=
  exists st b, r = rd st b /\ wf b /\ okl (b_pend b) /\ st_ok st /\ buf_len b < need st /\ prep b = b.

(* asking a waiting parser again changes nothing: the new call goes on as the abandoned one would have *)
Lemma nf_retry fuel st b st' b' n fi : wf b -> okl (b_pend b) -> st_ok st -> pp st b = (st', b', Ok None) ->
  waiting (rd st' (prep b')) /\ next_frame (S fuel) (rd st' (prep b')) n fi = next_frame (S fuel) (rd st b) n fi.
Proof using stable.
  intros Hwf Hok Hst Ep. destruct (H_none _ _ _ _ Hwf Hok Hst Ep) as (Hst' & Hlt & (k & -> & Hk & _) & _).
  pose proof (prep_wf _ (consume_wf _ _ Hwf Hk)) as Hwf'.
  assert (Hok' : okl (b_pend (prep (consume k b)))) by (rewrite prep_pend; now apply okl_skipn).
  assert (Hlt' : buf_len (prep (consume k b)) < need st') by (unfold buf_len in *; now rewrite prep_pend).
  split; [exists st', (prep (consume k b)); repeat split; auto using prep_idem|].
  cbn [next_frame rd r_parser r_buf]. rewrite !H_mk, Ep, H_stable by assumption.
  destruct n as [|c n]; now rewrite read_some_prep.
Qed.

(* next_frame over n1 ++ n2: if the call over n1 alone would still be waiting at the end of n1, the
   call over n1 ++ n2 is the call over n2 started from the reader the abandoned call left behind;
   otherwise it already returned inside n1 and n2 is untouched *)
Theorem nf_app : forall fuel st b n1 n2 fi F2,
  wf b -> okl (b_pend b) -> Forall okl n1 -> Forall okl n2 -> st_ok st ->
  length (concat n1) < fuel -> length (concat n2) < F2 ->
  match next_frame fuel (rd st b) n1 FinPending with
  | (r1, n1', NfEnd EndPending) =>
      n1' = [] /\ waiting r1 /\
      (exists consumed, b_pend b ++ sbytes n1 = consumed ++ b_pend (r_buf r1)) /\
      sfin n1 FinPending = FinPending /\
      next_frame (fuel + F2) (rd st b) (n1 ++ n2) fi = next_frame F2 r1 n2 fi
  | (r1, n1', res) => next_frame (fuel + F2) (rd st b) (n1 ++ n2) fi = (r1, n1' ++ n2, res)
  end.
Proof using stable.
  induction fuel as [|fuel IH]; intros st b n1 n2 fi F2 Hwf Hok Hokn1 Hokn2 Hst Hfuel HF2; [lia|].
  destruct (pp st b) as [[st' b'] r] eqn:Ep.
  destruct r as [[f|]|e|]; try (cbn [next_frame Nat.add rd r_parser r_buf]; rewrite H_mk, Ep; reflexivity).
  destruct (H_none _ _ _ _ Hwf Hok Hst Ep) as (Hst' & _ & (k & Eb & Hk & _) & _).
  destruct (consume_split k b (sbytes n1) Hk) as [Hs _]. rewrite <- Eb in Hs.
  destruct n1 as [|[|x c] n1']; cbn [app Nat.add].
  - destruct (nf_retry (fuel + F2) st b st' b' n2 fi Hwf Hok Hst Ep) as [Hw <-].
    rewrite (nf_dry fuel st b st' b' [] FinPending Hwf Hok Hst Ep eq_refl). cbn [tl sfin end_of sbytes rd r_buf] in *.
    split; [reflexivity|]. split; [exact Hw|]. split; [exists (firstn k (b_pend b)); now rewrite prep_pend, Hs, app_nil_r|]. split; [reflexivity|].
    destruct Hw as (st1 & b1 & E1 & Hwf1 & Hok1 & Hst1 & _). rewrite E1. apply nf_fuel_indep; try assumption; lia.
  - rewrite (nf_dry fuel st b st' b' ([] :: n1') FinPending Hwf Hok Hst Ep eq_refl).
    now rewrite (nf_dry (fuel + F2) st b st' b' ([] :: n1' ++ n2) fi Hwf Hok Hst Ep eq_refl).
  - apply Forall_cons_iff in Hokn1 as [Hokx Hokn1'].
    destruct (nf_read st b st' b' (x :: c) Hwf Hok Hst Ep ltac:(discriminate) Hokx) as (b'' & r & Hwf'' & Hok'' & Hokr & Hlr & Heq & Hnf).
    rewrite !Hnf, <- unread_app. cbn [concat] in Hfuel. rewrite app_length in Hfuel.
    specialize (IH st' b'' (unread r n1') n2 fi F2 Hwf'' Hok'' (unread_Forall okl r n1' Hokr Hokn1') Hokn2 Hst'
                  ltac:(rewrite unread_concat, app_length; lia) HF2).
    destruct (next_frame fuel (rd st' b'') (unread r n1') FinPending) as [[r1 n1r] res]. destruct res as [f|e]; [exact IH|].
    destruct e; try exact IH. destruct IH as (-> & Hw & (cs & Hcs) & Hsf1 & E). rewrite unread_sfin in Hsf1.
    repeat split; try assumption. exists (firstn k (b_pend b) ++ cs). now rewrite Hs, Heq, Hcs, app_assoc.
Qed.

Corollary nf_cancel_safe : forall st b n1 n2 fi r1 n1' F1 F2 F,
  wf b -> okl (b_pend b) -> Forall okl n1 -> Forall okl n2 -> st_ok st ->
  length (concat n1) < F1 -> length (concat n2) < F2 -> length (concat (n1 ++ n2)) < F ->
  next_frame F1 (rd st b) n1 FinPending = (r1, n1', NfEnd EndPending) ->
  next_frame F2 r1 n2 fi = next_frame F (rd st b) (n1 ++ n2) fi /\ n1' = [] /\ waiting r1.
Proof using stable.
  intros st b n1 n2 fi r1 n1' F1 F2 F Hwf Hok Hokn1 Hokn2 Hst H1 H2 HF E.
  pose proof (nf_app F1 st b n1 n2 fi F2 Hwf Hok Hokn1 Hokn2 Hst H1 H2) as H. rewrite E in H.
  destruct H as (Hn & Hw & _ & _ & Heq). split; [|split; assumption]. rewrite <- Heq.
  apply nf_fuel_indep; try assumption.
  - apply Forall_app; split; assumption.
  - rewrite concat_app, app_length in *. lia.
Qed.

(* the same at the model's own fuels, with what `waiting` says of the reader that the callers go on with *)
Corollary nf_cancel_safe_fuel : forall st b n1 n2 fi r1 n1',
  wf b -> okl (b_pend b) -> Forall okl n1 -> Forall okl n2 -> st_ok st ->
  next_frame (nf_fuel n1) (rd st b) n1 FinPending = (r1, n1', NfEnd EndPending) ->
  next_frame (nf_fuel n2) r1 n2 fi = next_frame (nf_fuel (n1 ++ n2)) (rd st b) (n1 ++ n2) fi /\
  n1' = [] /\ exists st1 b1, r1 = rd st1 b1 /\ wf b1 /\ okl (b_pend b1) /\ st_ok st1.
Proof using stable.
  intros st b n1 n2 fi r1 n1' Hwf Hok Hokn1 Hokn2 Hst E.
  destruct (nf_cancel_safe st b n1 n2 fi r1 n1' (nf_fuel n1) (nf_fuel n2) (nf_fuel (n1 ++ n2)) Hwf Hok Hokn1 Hokn2 Hst
              ltac:(unfold nf_fuel; lia) ltac:(unfold nf_fuel; lia) ltac:(unfold nf_fuel; lia) E)
    as (Heq & Hn & (st1 & b1 & -> & Hwf1 & Hok1 & Hst1 & _)).
  split; [exact Heq|]. split; [exact Hn|]. now exists st1, b1.
Qed.

Lemma run_st_fuel_indep : forall G1 G2 st b n fi, wf b -> okl (b_pend b) -> Forall okl n -> st_ok st ->
  rmeasure st b n < G1 -> rmeasure st b n < G2 ->
  run_reader_st G1 (rd st b) n fi = run_reader_st G2 (rd st b) n fi.
Proof using base.
  induction G1 as [|G1 IH]; intros G2 st b n fi Hwf Hok Hokn Hst H1 H2; [lia|]. destruct G2 as [|G2]; [lia|].
  cbn [run_reader_st].
  destruct (nf_cases st b n fi _ Hwf Hok Hokn Hst (Nat.lt_succ_diag_r _)) as [b' n' f Hx _| |]; [|reflexivity..].
  pose proof (nx_measure Hx). now rewrite (IH G2 init b' n' fi (nx_wf Hx) (nx_okl Hx) (nx_okn Hx) H_init_ok) by lia.
Qed.

(* a run over n1 ++ n2 = the run over n1; if that one is still waiting at the end of n1, continued
   from the reader it left behind over n2 (frames concatenated); otherwise it ended inside n1 *)
Theorem run_st_app : forall G1 st b n1 n2 fi G2 G,
  wf b -> okl (b_pend b) -> Forall okl n1 -> Forall okl n2 -> st_ok st ->
  rmeasure st b n1 < G1 ->
  length (b_pend b ++ sbytes n1) + length (sbytes n2) + 1 < G2 ->
  rmeasure st b n1 + length (sbytes n2) + 1 < G ->
  run_reader_st G (rd st b) (n1 ++ n2) fi =
  match run_reader_st G1 (rd st b) n1 FinPending with
  | (r1, (l1, EndPending)) => let '(r2, (l2, e2)) := run_reader_st G2 r1 n2 fi in (r2, (l1 ++ l2, e2))
  | x => x
  end.
Proof using All.
  induction G1 as [|G1 IH]; intros st b n1 n2 fi G2 G Hwf Hok Hokn1 Hokn2 Hst H1 H2 HG; [lia|].
  destruct G as [|G]; [lia|]. cbn [run_reader_st].
  assert (Hokn : Forall okl (n1 ++ n2)) by (apply Forall_app; split; assumption).
  pose proof (nf_app (nf_fuel n1) st b n1 n2 fi (nf_fuel n2) Hwf Hok Hokn1 Hokn2 Hst ltac:(unfold nf_fuel; lia) ltac:(unfold nf_fuel; lia)) as Happ.
  rewrite (nf_fuel_indep (nf_fuel n1 + nf_fuel n2) (nf_fuel (n1 ++ n2)) st b (n1 ++ n2) fi Hwf Hok Hokn Hst) in Happ
    by (unfold nf_fuel; rewrite ?concat_app, ?app_length; lia).
  revert Happ.
  destruct (nf_cases st b n1 FinPending _ Hwf Hok Hokn1 Hst (Nat.lt_succ_diag_r _)) as [b' n1' f Hx _|b' n1' e Hx _|r' n1' e Hnb _ _ _]; intros Happ.
  - rewrite Happ. pose proof (nx_measure Hx). pose proof (nx_len Hx).
    rewrite (IH init b' n1' n2 fi G2 G (nx_wf Hx) (nx_okl Hx) (nx_okn Hx) Hokn2 H_init_ok) by lia.
    destruct (run_reader_st G1 (rd init b') n1' FinPending) as [r1 [l1 e1]].
    destruct e1; try reflexivity. now destruct (run_reader_st G2 r1 n2 fi) as [r2 [l2 e2]].
  - now rewrite Happ.
  - destruct e; [now destruct (Hnb e)|try (now rewrite Happ)..].
    (* still waiting at the end of n1: the combined run goes on with the calls over n2 *)
    destruct Happ as (-> & Hw & (cs & Hcs) & _ & ->).
    destruct Hw as (st1 & b1 & -> & Hwf1 & Hok1 & Hst1 & Hlt1 & _).
    destruct G2 as [|G2]; [lia|]. cbn [run_reader_st app].
    destruct (nf_cases st1 b1 n2 fi _ Hwf1 Hok1 Hokn2 Hst1 (Nat.lt_succ_diag_r _)) as [b2 n2' f2 Hx2 _| |]; [|reflexivity..].
    (* at most what was pending plus all of n1 is pending in b1 *)
    assert (Hb1 : length (b_pend b1) <= length (b_pend b ++ sbytes n1)) by (cbn [rd r_buf] in Hcs; rewrite Hcs, app_length; lia).
    pose proof (nx_measure Hx2) as Hm2.
    rewrite (run_st_fuel_indep G G2 init b2 n2' fi (nx_wf Hx2) (nx_okl Hx2) (nx_okn Hx2) H_init_ok)
      by (unfold rmeasure in *; rewrite !app_length in *; lia).
    now destruct (run_reader_st G2 (rd init b2) n2' fi) as [r3 [l3 e3]].
Qed.

(* run_ref_any under the name and with the hypotheses (H_stable included) the instances mbap_run_ref_from / rtu_run_ref_from take *)
Theorem run_ref_from : forall G st b n fi F,
  wf b -> okl (b_pend b) -> Forall okl n -> st_ok st ->
  rmeasure st b n < G -> length (b_pend b ++ sbytes n) < F ->
  run_reader G false (rd st b) n fi = liftr (ref_from F st (b_pend b ++ sbytes n) (sfin n fi)).
Proof using All. exact run_ref_any. Qed.

Theorem run_st_pending : forall G st b n r1 l1,
  wf b -> okl (b_pend b) -> Forall okl n -> st_ok st -> rmeasure st b n < G ->
  run_reader_st G (rd st b) n FinPending = (r1, (l1, EndPending)) ->
  waiting r1 /\ sfin n FinPending = FinPending /\
  exists consumed, b_pend b ++ sbytes n = consumed ++ b_pend (r_buf r1).
Proof using All.
  induction G as [|G IH]; intros st b n r1 l1 Hwf Hok Hokn Hst HG E; [lia|]. cbn [run_reader_st] in E.
  pose proof (nf_app (nf_fuel n) st b n [] FinPending 1 Hwf Hok Hokn ltac:(constructor) Hst ltac:(unfold nf_fuel; lia) ltac:(cbn; lia)) as Happ.
  revert Happ E.
  destruct (nf_cases st b n FinPending _ Hwf Hok Hokn Hst (Nat.lt_succ_diag_r _)) as [b' n' f Hx _|b' n' e Hx _|r' n' e _ _ _ _]; intros Happ E.
  - destruct (run_reader_st G (rd init b') n' FinPending) as [r2 [l2 e2]] eqn:E2. inversion E; subst.
    pose proof (nx_measure Hx). destruct (nx_split Hx) as [cs Hcs].
    destruct (IH init b' n' r1 l2 (nx_wf Hx) (nx_okl Hx) (nx_okn Hx) H_init_ok ltac:(lia) E2) as (Hw & Hs & (cs2 & Hcs2)).
    split; [exact Hw|]. split; [now rewrite <- (nx_sfin Hx)|]. exists (cs ++ cs2). now rewrite Hcs, Hcs2, app_assoc.
  - discriminate E.
  - inversion E; subst. destruct Happ as (_ & Hw & Hc & Hs & _). repeat split; assumption.
Qed.

Theorem run_cancel_eq : forall n st b fi G,
  wf b -> okl (b_pend b) -> Forall okl n -> st_ok st ->
  length (b_pend b) + length (concat n) + 2 < G ->
  run_cancel (rd st b) n fi = run_reader G false (rd st b) n fi.
Proof using stable.
  induction n as [|c rest IH]; intros st b fi G Hwf Hok Hokn Hst HG; cbn [run_cancel].
  - rewrite <- !run_reader_st_snd. f_equal.
    apply run_st_fuel_indep; try assumption; unfold rmeasure, run_fuel; cbn [rd r_buf sbytes concat length]; rewrite app_nil_r; unfold buf_len; lia.
  - assert (Hokc : Forall okl [c]) by (inversion Hokn; subst; constructor; [assumption|constructor]).
    assert (Hokr : Forall okl rest) by (inversion Hokn; assumption).
    pose proof (sbytes_le [c]) as Hs1. pose proof (sbytes_le rest) as Hs2. cbn [concat] in HG, Hs1. rewrite app_length in HG. rewrite app_nil_r in Hs1.
    assert (Hm1 : rmeasure st b [c] < run_fuel (rd st b) [c]).
    { unfold rmeasure, run_fuel. cbn [rd r_buf concat]. rewrite app_nil_r, app_length. unfold buf_len. lia. }
    pose proof (run_st_app (run_fuel (rd st b) [c]) st b [c] rest fi G G Hwf Hok Hokc Hokr Hst Hm1
                  ltac:(rewrite app_length; lia) ltac:(unfold rmeasure; rewrite app_length; lia)) as Happ.
    change ([c] ++ rest) with (c :: rest) in Happ.
    rewrite <- (run_reader_st_snd G (rd st b) (c :: rest) fi), Happ.
    destruct (run_reader_st (run_fuel (rd st b) [c]) (rd st b) [c] FinPending) as [r1 [l1 e1]] eqn:E1.
    destruct e1; try reflexivity.
    destruct (run_st_pending _ st b [c] r1 l1 Hwf Hok Hokc Hst Hm1 E1) as (Hw & _ & (cs & Hcs)).
    destruct Hw as (st1 & b1 & -> & Hwf1 & Hok1 & Hst1 & _ & _). cbn [rd r_buf] in Hcs.
    assert (Hb1 : length (b_pend b1) <= length (b_pend b) + length c).
    { apply (f_equal (@length N)) in Hcs. rewrite !app_length in Hcs. lia. }
    rewrite (IH st1 b1 fi G Hwf1 Hok1 Hokr Hst1 ltac:(lia)).
    rewrite <- run_reader_st_snd. destruct (run_reader_st G (rd st1 b1) rest fi) as [r2 [l2 e2]]. reflexivity.
Qed.

Corollary session_cancel_safe : forall n fi, Forall okl n ->
  run_cancel (rd init buf_new) n fi = run_reader (run_fuel (rd init buf_new) n) false (rd init buf_new) n fi.
Proof using stable.
  intros n fi Hokn. pose proof (sbytes_le n) as Hs.
  rewrite (run_cancel_eq n init buf_new fi (S (run_fuel (rd init buf_new) n)) wf_new okl_nil Hokn H_init_ok) by (cbn; lia).
  rewrite <- !run_reader_st_snd. f_equal.
  apply run_st_fuel_indep; auto using wf_new; unfold rmeasure, run_fuel; cbn [rd r_buf buf_new buf_len b_pend app length]; lia.
Qed.

(* A reader that REPRESENTS a Spec leftover. `represents r t`: r is waiting, and from r the future
   looks exactly as it looks to the Spec after the unconsumed bytes t. A fresh reader represents [];
   a run that ends waiting leaves a reader that represents the Spec's leftover. This is the
   interface for sequences of exchanges on one connection. *)
Variable rtail : list N -> list N.           (* the Spec's incomplete last frame *)
Hypothesis H_rf_fuel : forall F1 F2 s fi, length s < F1 -> length s < F2 -> rf F1 s fi = rf F2 s fi.
Hypothesis H_rf_app : forall F s1 s2 fi, length (s1 ++ s2) < F ->
  rf F (s1 ++ s2) fi =
  match rf F s1 FinPending with
  | (fs1, EndPending) => (fs1 ++ fst (rf F (rtail s1 ++ s2) fi), snd (rf F (rtail s1 ++ s2) fi))
  | x => x
  end.
Hypothesis H_rtail_len : forall s, length (rtail s) <= length s.

(* m: how far above the future bytes the Spec fuel has to be for the equation to hold (what is pending, with slack) *)
Definition represents (r : reader) (t : list N) : Prop :=
  exists st b m, r = rd st b /\ wf b /\ okl (b_pend b) /\ st_ok st /\
    forall fut F fi, m + length fut < F -> okl fut -> ref_from F st (b_pend b ++ fut) fi = rf F (t ++ fut) fi.

Lemma represents_fresh : represents (rd init buf_new) [].
Proof using base.
  exists init, buf_new, 0. split; [reflexivity|]. split; [apply wf_new|]. split; [exact okl_nil|]. split; [exact H_init_ok|].
  intros fut F fi _ _. cbn [buf_new b_pend app]. apply H_init.
Qed.

(* G: any fuel above pending + new bytes + 1 (e.g. run_fuel r n); F: any Spec fuel above the stream length *)
Theorem run_represents : forall r t n fi G F,
  represents r t -> Forall okl n ->
  buf_len (r_buf r) + length (sbytes n) + 1 < G -> length (t ++ sbytes n) < F ->
  run_reader G false r n fi = liftr (rf F (t ++ sbytes n) (sfin n fi)).
Proof using base H_rf_fuel.
  intros r t n fi G F (st & b & m & -> & Hwf & Hok & Hst & Hrep) Hokn HG HF. cbn [rd r_buf] in HG. unfold buf_len in HG.
  set (F' := S (F + m + length (b_pend b ++ sbytes n) + length (t ++ sbytes n))).
  rewrite (run_ref_any G st b n fi F' Hwf Hok Hokn Hst); [|unfold rmeasure; rewrite app_length; lia|unfold F'; lia].
  rewrite Hrep; [|unfold F'; rewrite !app_length; lia|now apply okl_sbytes].
  rewrite (H_rf_fuel F' F); [reflexivity|unfold F'; lia|exact HF].
Qed.

(* the same at the model's own fuel, for the run and for the run that returns its reader *)
Corollary run_represents_fuel : forall r t n fi, represents r t -> Forall okl n ->
  run_reader (run_fuel r n) false r n fi = liftr (rf (S (length (t ++ sbytes n))) (t ++ sbytes n) (sfin n fi)) /\
  snd (run_reader_st (run_fuel r n) r n fi) = liftr (rf (S (length (t ++ sbytes n))) (t ++ sbytes n) (sfin n fi)).
Proof using base H_rf_fuel.
  intros r t n fi Hrep Hokn. rewrite run_reader_st_snd.
  assert (H : run_reader (run_fuel r n) false r n fi = liftr (rf (S (length (t ++ sbytes n))) (t ++ sbytes n) (sfin n fi)))
    by (apply run_represents; [assumption..|apply run_fuel_enough|lia]).
  now split.
Qed.

Theorem represents_step : forall r t n G r1 l1,
  represents r t -> Forall okl n ->
  buf_len (r_buf r) + length (sbytes n) + 1 < G ->
  run_reader_st G r n FinPending = (r1, (l1, EndPending)) ->
  represents r1 (rtail (t ++ sbytes n)) /\
  l1 = map IFrame (fst (rf (S (length (t ++ sbytes n))) (t ++ sbytes n) FinPending)) /\
  snd (rf (S (length (t ++ sbytes n))) (t ++ sbytes n) FinPending) = EndPending.
Proof using stable H_rf_fuel H_rf_app.
  intros r t n G r1 l1 Hrep Hokn HG E.
  pose proof Hrep as (st & b & m & -> & Hwf & Hok & Hst & Href). cbn [rd r_buf] in HG. unfold buf_len in HG.
  assert (Hm : rmeasure st b n < G) by (unfold rmeasure; rewrite !app_length in *; lia).
  destruct (run_st_pending G st b n r1 l1 Hwf Hok Hokn Hst Hm E) as (Hw & Hsf & (cs & Hcs)).
  pose proof (run_represents (rd st b) t n FinPending G (S (length (t ++ sbytes n))) Hrep Hokn ltac:(cbn [rd r_buf]; unfold buf_len; lia) ltac:(lia)) as Hrun.
  rewrite <- run_reader_st_snd, E in Hrun. cbn [snd] in Hrun. rewrite Hsf in Hrun.
  set (s1 := t ++ sbytes n) in *. set (F0 := S (length s1)) in *.
  destruct (rf F0 s1 FinPending) as [fs1 e1] eqn:Erf. unfold liftr in Hrun. cbn [fst snd] in Hrun. inversion Hrun as [[Hl1 He1]]. subst e1.
  split; [|split; reflexivity].
  destruct Hw as (st1 & b1 & -> & Hwf1 & Hok1 & Hst1 & Hlt1 & Hprep).
  assert (Hb1 : length (b_pend b1) <= length (b_pend b ++ sbytes n)) by (cbn [rd r_buf] in Hcs; rewrite Hcs, app_length; lia).
  exists st1, b1, (m + length s1 + length (b_pend b ++ sbytes n) + 3). split; [reflexivity|]. split; [assumption|]. split; [assumption|]. split; [assumption|].
  intros fut F fi HF Hokf.
  set (n2 := match fut with [] => [] | _ => [fut] end).
  assert (Hn2 : sbytes n2 = fut /\ sfin n2 fi = fi /\ Forall okl n2).
  { unfold n2. destruct fut; [repeat split; constructor|]. cbn [sbytes sfin]. rewrite app_nil_r. repeat split. constructor; [assumption|constructor]. }
  destruct Hn2 as (Hs2 & Hf2 & Hokn2).
  destruct (sfin_pending_app n Hsf n2 fi) as [Hsa Hfa].
  (* the run over n ++ n2, computed in two ways *)
  pose proof (run_st_app G st b n n2 fi F (S F) Hwf Hok Hokn Hokn2 Hst Hm
                ltac:(rewrite Hs2; lia) ltac:(unfold rmeasure; rewrite Hs2; lia)) as Happ.
  rewrite E in Happ.
  pose proof (run_reader_st_snd (S F) (rd st b) (n ++ n2) fi) as H1. rewrite Happ in H1.
  pose proof (run_reader_st_snd F (rd st1 b1) n2 fi) as H2.
  destruct (run_reader_st F (rd st1 b1) n2 fi) as [r2 [l2 e2]]. cbn [snd] in H1, H2.
  assert (Hokna : Forall okl (n ++ n2)) by (apply Forall_app; split; assumption).
  rewrite (run_represents (rd st b) t (n ++ n2) fi (S F) F Hrep Hokna) in H1;
    [|cbn [rd r_buf]; unfold buf_len; rewrite Hsa, Hs2, !app_length in *; lia|rewrite Hsa, Hs2, app_assoc; fold s1; rewrite app_length; lia].
  rewrite Hsa, Hfa, Hs2, Hf2, app_assoc in H1. fold s1 in H1.
  rewrite (H_rf_app F s1 fut fi) in H1 by (rewrite app_length; lia).
  rewrite (H_rf_fuel F F0 s1 FinPending) in H1 by (unfold F0; lia).
  rewrite Erf in H1.
  rewrite (run_ref_from F st1 b1 n2 fi F Hwf1 Hok1 Hokn2 Hst1) in H2
    by (unfold rmeasure; rewrite Hs2, !app_length in *; lia).
  rewrite Hs2, Hf2 in H2.
  destruct (rf F (rtail s1 ++ fut) fi) as [fs' e'] eqn:Erf'. cbn [fst snd] in H1.
  unfold liftr in H1. cbn [fst snd] in H1. rewrite map_app, <- Hl1 in H1. inversion H1 as [[Hl He]]. apply app_inv_head in Hl. subst l2 e2.
  symmetry in H2. change (map IFrame fs', e') with (liftr (fs', e')) in H2. now apply liftr_inj in H2.
Qed.

Corollary run_st_represents : forall r t n fi G F,
  represents r t -> Forall okl n ->
  buf_len (r_buf r) + length (sbytes n) + 1 < G -> length (t ++ sbytes n) < F ->
  snd (run_reader_st G r n fi) = liftr (rf F (t ++ sbytes n) (sfin n fi)).
Proof using All. intros. rewrite run_reader_st_snd. now apply run_represents. Qed.

(* Polling again after a framing error (resume = true): the RTU server keeps ONE reader across port
   re-opens. `rafter F s` = what the Spec says is left of the stream after its first framing error;
   `after_from` its state-indexed version. The run in resume mode is the Spec applied session after
   session, each from a clean parser, on what is left. *)
Variable rafter : nat -> list N -> list N.
Variable after_from : nat -> pst -> list N -> list N.
Hypothesis HA_init : forall F s, after_from F init s = rafter F s.
Hypothesis HA_none : forall st b st' b', wf b -> okl (b_pend b) -> st_ok st -> pp st b = (st', b', Ok None) ->
  forall fut F, length (b_pend b ++ fut) < F -> after_from F st (b_pend b ++ fut) = after_from F st' (b_pend b' ++ fut).
Hypothesis HA_some : forall st b st' b' f, wf b -> okl (b_pend b) -> st_ok st -> pp st b = (st', b', Ok (Some f)) ->
  forall fut F, length (b_pend b ++ fut) < F -> after_from F st (b_pend b ++ fut) = rafter F (b_pend b' ++ fut).
Hypothesis HA_err : forall st b st' b' e, wf b -> okl (b_pend b) -> st_ok st -> pp st b = (st', b', Err e) ->
  forall fut F, length (b_pend b ++ fut) < F -> after_from F st (b_pend b ++ fut) = b_pend b' ++ fut.

Theorem nf_after : forall fuel st b n fi F,
  wf b -> okl (b_pend b) -> Forall okl n -> st_ok st -> length (concat n) < fuel -> length (b_pend b ++ sbytes n) < F ->
  match next_frame fuel (rd st b) n fi with
  | (r', n', NfFrame _) => after_from F st (b_pend b ++ sbytes n) = rafter F (b_pend (r_buf r') ++ sbytes n')
  | (r', n', NfEnd (EndBad _)) => after_from F st (b_pend b ++ sbytes n) = b_pend (r_buf r') ++ sbytes n'
  | _ => True
  end.
Proof using base HA_none HA_some HA_err.
  induction fuel as [|fuel IH]; intros st b n fi F Hwf Hok Hokn Hst Hfuel HF; [lia|].
  destruct (pp st b) as [[st' b'] r] eqn:Ep. destruct r as [[f|]|e|].
  - cbn [next_frame rd r_parser r_buf]. rewrite H_mk, Ep. exact (HA_some _ _ _ _ _ Hwf Hok Hst Ep _ F HF).
  - destruct (H_none _ _ _ _ Hwf Hok Hst Ep) as (Hst' & _ & (k & Eb & Hk & _) & _).
    destruct (consume_split k b (sbytes n) Hk) as [_ Hl]. rewrite <- Eb in Hl.
    destruct n as [|[|x c] n'].
    + rewrite (nf_dry fuel st b st' b' [] fi Hwf Hok Hst Ep eq_refl). now destruct fi.
    + now rewrite (nf_dry fuel st b st' b' ([] :: n') fi Hwf Hok Hst Ep eq_refl).
    + apply Forall_cons_iff in Hokn as [Hokx Hokn'].
      destruct (nf_read st b st' b' (x :: c) Hwf Hok Hst Ep ltac:(discriminate) Hokx) as (b'' & r & Hwf'' & Hok'' & Hokr & Hlr & Heq & Hnf).
      rewrite Hnf, (HA_none _ _ _ _ Hwf Hok Hst Ep _ F HF), Heq. rewrite Heq in Hl.
      cbn [concat] in Hfuel. rewrite app_length in Hfuel.
      apply IH; try assumption; [now apply unread_Forall|rewrite unread_concat, app_length; lia|lia].
  - cbn [next_frame rd r_parser r_buf]. rewrite H_mk, Ep. exact (HA_err _ _ _ _ _ Hwf Hok Hst Ep _ F HF).
  - cbn [next_frame rd r_parser r_buf]. now rewrite H_mk, Ep.
Qed.

(* the Spec's view of a whole life: a session, its framing error, a clean start on what is left, ... *)
Fixpoint gres (fuel : nat) (F : nat) (s : list N) (fi : fin) : list item * ending :=
  match fuel with
  | O => ([], EndOutOfFuel)
  | S fuel =>
      let '(fs, e) := rf F s fi in
      match e with
      | EndBad err => let '(l, e') := gres fuel F (rafter F s) fi in (map IFrame fs ++ IErr err :: l, e')
      | _ => (map IFrame fs, e)
      end
  end.
Hypothesis HA_len : forall F s fi fs e, rf F s fi = (fs, EndBad e) -> length (rafter F s) < length s.

Lemma gres_fuel : forall G1 G2 F s fi, length s < G1 -> length s < G2 -> gres G1 F s fi = gres G2 F s fi.
Proof using HA_len.
  clear - HA_len.
  induction G1 as [|G1 IH]; intros G2 F s fi H1 H2; [lia|]. destruct G2 as [|G2]; [lia|]. cbn [gres].
  destruct (rf F s fi) as [fs e] eqn:E. destruct e; try reflexivity.
  pose proof (HA_len F s fi fs e E) as Hl. rewrite (IH G2 F (rafter F s) fi); [reflexivity|lia|lia].
Qed.

Theorem run_resume_ref : forall G b n fi F,
  wf b -> okl (b_pend b) -> Forall okl n ->
  length (b_pend b ++ sbytes n) < G -> length (b_pend b ++ sbytes n) < F ->
  run_reader G true (rd init b) n fi = gres G F (b_pend b ++ sbytes n) (sfin n fi).
Proof using base HA_init HA_none HA_some HA_err HA_len.
  induction G as [|G IH]; intros b n fi F Hwf Hok Hokn HG HF; [lia|]. cbn [run_reader].
  pose proof (nf_after (nf_fuel n) init b n fi F Hwf Hok Hokn H_init_ok ltac:(unfold nf_fuel; lia) HF) as Haf.
  rewrite HA_init in Haf. revert Haf. pose proof H_cons_init as Hci.
  destruct (nf_cases init b n fi F Hwf Hok Hokn H_init_ok HF) as [b' n' f Hx Hr|b' n' e Hx Hr|r' n' e Hnb _ _ Hr];
    rewrite H_init in Hr; intros Haf; cbn [rd r_buf] in Haf; cbn [gres]; rewrite Hr.
  - pose proof (nx_len Hx). rewrite (IH b' n' fi F (nx_wf Hx) (nx_okl Hx) (nx_okn Hx)), (nx_sfin Hx) by lia.
    rewrite (gres_fuel G (S G) F (b_pend b' ++ sbytes n') (sfin n fi)) by lia.
    cbn [gres]. rewrite Haf. destruct (rf F (b_pend b' ++ sbytes n') (sfin n fi)) as [fs e]. cbn [consf map app].
    destruct e; try reflexivity. now destruct (gres G F (rafter F (b_pend b' ++ sbytes n')) (sfin n fi)) as [l e'].
  - pose proof (nx_len Hx). rewrite (IH b' n' fi F (nx_wf Hx) (nx_okl Hx) (nx_okn Hx)), (nx_sfin Hx), Haf by lia.
    cbn [map app]. now destruct (gres G F (b_pend b' ++ sbytes n') (sfin n fi)) as [l e'].
  - destruct e; [now destruct (Hnb e)|reflexivity..].
Qed.

End Generic.

(* "T holds for every parser with the base laws": the shape of every result of the section proved `using base`, further
   hypotheses being part of T. A parser is instantiated once, by a lemma `for_any_parser T -> T <the parser>`
   (MbapProofs.mbap_parser, RtuProofs.rtu_parser). *)
Definition for_any_parser
  (T : forall pst : Type, (pst -> parser) -> (pst -> buf -> pst * buf * presult) -> pst -> (pst -> Prop) -> (pst -> nat) -> (pst -> nat) ->
       (nat -> list N -> fin -> list frame * ending) -> (nat -> pst -> list N -> fin -> list frame * ending) -> (list N -> Prop) -> Prop) : Prop :=
  forall (pst : Type) (mk : pst -> parser) (pp : pst -> buf -> pst * buf * presult) (init : pst) (st_ok : pst -> Prop) (need cons_need : pst -> nat)
    (rf : nat -> list N -> fin -> list frame * ending) (ref_from : nat -> pst -> list N -> fin -> list frame * ending) (okl : list N -> Prop),
  okl [] -> (forall a c, okl a -> okl c -> okl (a ++ c)) -> (forall k a, okl a -> okl (firstn k a)) -> (forall k a, okl a -> okl (skipn k a)) ->
  (forall st b, parser_parse (mk st) b = let '(st', b', r) := pp st b in (mk st', b', r)) ->
  (forall st, parser_reset (mk st) = mk init) -> st_ok init -> (forall F s fi, ref_from F init s fi = rf F s fi) -> 1 <= cons_need init ->
  (forall st, st_ok st -> need st <= cap) ->
  (forall st p F fi, st_ok st -> length p < need st -> 0 < F -> ref_from F st p fi = ([], end_of fi)) ->
  (forall st b st' b', wf b -> okl (b_pend b) -> st_ok st -> pp st b = (st', b', Ok None) ->
    st_ok st' /\ buf_len b' < need st' /\
    (exists k, b' = consume k b /\ k <= buf_len b /\ cons_need st <= k + cons_need st') /\
    (forall fut F fi, length (b_pend b ++ fut) < F -> ref_from F st (b_pend b ++ fut) fi = ref_from F st' (b_pend b' ++ fut) fi)) ->
  (forall st b st' b' f, wf b -> okl (b_pend b) -> st_ok st -> pp st b = (st', b', Ok (Some f)) ->
    st' = init /\ (exists k, b' = consume k b /\ k <= buf_len b /\ cons_need st <= k) /\
    (forall fut F fi, length (b_pend b ++ fut) < F -> ref_from F st (b_pend b ++ fut) fi = consf f (rf F (b_pend b' ++ fut) fi))) ->
  (forall st b st' b' e, wf b -> okl (b_pend b) -> st_ok st -> pp st b = (st', b', Err e) ->
    (exists k, b' = consume k b /\ k <= buf_len b /\ cons_need st <= k) /\
    (forall fut F fi, length (b_pend b ++ fut) < F -> ref_from F st (b_pend b ++ fut) fi = ([], EndBad e))) ->
  (forall st b st' b', wf b -> okl (b_pend b) -> st_ok st -> pp st b <> (st', b', Panic)) ->
  T pst mk pp init st_ok need cons_need rf ref_from okl.
