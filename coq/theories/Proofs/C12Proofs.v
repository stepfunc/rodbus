(* Proofs for C12: the consecutive-timeout counter as run_one_request drives it (tc_step, ends_at, counter_spec,
   finish_counter); the reply deadline, exact on the timer side and on the frame side; the bound on the transmission
   (write_bound_set, write_bound_kept, write_timeout_exact, write_done_first, release_finishes); the eager schedule leaves no due timer
   behind; the timer instant (fires_at_exact, fires_at_bounds). *)
(* ZifyN is what lets `lia` / `nia` decide the goals with N.min, `/` and `mod` below *)
From Coq Require Import NArith List Bool Lia ZArith ZifyN.
From Rodbus Require Import Spec.ClientSpec Gen.SessionErrors Model.ClientTask Model.ClientEager Proofs.ClientBase.
Import ListNotations.
Local Open Scope N_scope.

(* what one finished request does to the counter: (new counter, true = the session ends with MaxTimeouts) *)
Definition tc_step (t : tcounter) (o : outcome) : tcounter * bool :=
  if is_timeout o then tc_increment t else (tc_reset t, false).

(* index of the request at which the session ends *)
Fixpoint ends_at (t : tcounter) (os : list outcome) : option nat :=
  match os with
  | [] => None
  | o :: r => let '(t', stop) := tc_step t o in if stop then Some O else option_map S (ends_at t' r)
  end.

Lemma counter_spec m : 1 <= m -> m <= usize_max ->
  forall os c, c < m -> ends_at (TcEnabled c m) os = drop_index m c os.
Proof.
  intros H1 Hm. induction os as [|o os IH]; intros c Hc; [reflexivity|].
  cbn [ends_at drop_index]. unfold tc_step. destruct (is_timeout o).
  - cbn [tc_increment]. assert (E : N.min (c + 1) usize_max = c + 1) by lia. rewrite E.
    unfold counter_limit_reached. destruct (N.leb_spec m (c + 1)); [reflexivity|]. rewrite IH by lia. reflexivity.
  - cbn [tc_reset]. unfold counter_reset_value. rewrite IH by lia. reflexivity.
Qed.

Lemma counter_from_new m os : 1 <= m -> m <= usize_max -> ends_at (tc_new (Some m)) os = drop_index_opt (Some m) os.
Proof. intros H1 Hm. cbn. apply counter_spec; lia. Qed.

Definition outcome_result (o : outcome) : result :=
  match o with
  | Timeout => RErr ReResponseTimeout | Success => ROk | Exception => RErr ReException | BadReply => RErr ReBadResponse
  end.

Section Task.
Variable cfg : config.

Lemma finish_counter s r oc :
  finish s r (outcome_result oc) =
  let '(t', stop) := tc_step (tcount s) oc in
  if stop then let '(s', o) := end_session (set_tc (set_ph s PIdle) t') SeMaxTimeouts in (s', [OComplete (rq_id r) (outcome_result oc)] ++ o)
  else (set_tc (set_ph s PIdle) t', [OComplete (rq_id r) (outcome_result oc)]).
Proof.
  unfold finish, tc_step. destruct oc; cbn [outcome_result is_timeout from_request_err request_error_beq counted_error success_resets_counter set_ph tcount].
  - destruct (tc_increment (tcount s)) as [t' stop]. destruct stop; reflexivity.
  - reflexivity.
  - reflexivity.
  - reflexivity.
Qed.

Lemma timer_exact s r tx d : ph s = PInFlight r tx d ->
  (fire cfg d <= now s -> exists o, snd (step cfg s EvTimer) = OComplete (rq_id r) (RErr ReResponseTimeout) :: o) /\
  (now s < fire cfg d -> step cfg s EvTimer = (s, [])).
Proof.
  intros Eph. cbn [step]. rewrite Eph. split; intros H.
  - destruct (N.leb_spec (fire cfg d) (now s)); [|lia]. apply finish_head.
  - destruct (N.leb_spec (fire cfg d) (now s)); [lia|reflexivity].
Qed.

Lemma frame_completes s r tx d k : ph s = PInFlight r tx d -> partial s = None ->
  exists o, snd (step cfg s (EvFrame tx k)) = OComplete (rq_id r) (respond k) :: o /\ respond k <> RErr ReResponseTimeout.
Proof.
  intros Eph Hp. cbn [step]. rewrite Eph, Hp. cbn [reading]. unfold on_frame. rewrite Eph, N.eqb_refl.
  destruct (finish_head s r (respond k)) as [o E]. exists o. split; [exact E|destruct k; discriminate].
Qed.

Lemma timeout_usable s r tx d : ph s = PInFlight r tx d -> fire cfg d <= now s -> snd (tc_increment (tcount s)) = false ->
  step cfg s EvTimer = (set_tc (set_ph s PIdle) (fst (tc_increment (tcount s))), [OComplete (rq_id r) (RErr ReResponseTimeout)]).
Proof.
  intros Eph Hd Hs. cbn [step]. rewrite Eph. destruct (N.leb_spec (fire cfg d) (now s)); [|lia].
  change deadline_error with ReResponseTimeout. pose proof (finish_counter s r Timeout) as E. cbn [outcome_result] in E. rewrite E.
  unfold tc_step. cbn [is_timeout]. destruct (tc_increment (tcount s)) as [t' stop]. cbn [fst snd] in *. subst stop. reflexivity.
Qed.

Lemma write_bound_set s r : ph s = PIdle ->
  forall r' tx u, ph (fst (transmit s r)) = PWriting r' tx u -> r' = r /\ wdl (fst (transmit s r)) = now s + rq_timeout r.
Proof.
  intros Hp r' tx u.
  assert (Hfin : forall s0 res pre, ph (fst (emit pre (finish s0 r res))) = PWriting r' tx u ->
            r' = r /\ wdl (fst (emit pre (finish s0 r res))) = now s + rq_timeout r).
  { intros s0 res pre E. destruct (finish_summary s0 r res) as (Hi & _). cbn [emit fst] in E. rewrite E in Hi. discriminate Hi. }
  destruct (transmit_transmits s r) as [_|_ _| |u0].
  - (* tm_unformattable *) apply Hfin.
  - (* tm_write_failed *) apply Hfin.
  - (* tm_written *) discriminate.
  - (* tm_writing *) cbn [fst ph set_ph set_wdl set_wctl wdl]. intros H. inversion H. split; reflexivity.
Qed.

Lemma write_bound_kept s e r tx u : ph s = PWriting r tx u ->
  forall r' tx' u', ph (fst (step cfg s e)) = PWriting r' tx' u' -> (r', tx', u') = (r, tx, u) /\ wdl (fst (step cfg s e)) = wdl s.
Proof.
  intros Eph r' tx' u'.
  assert (Hsame : forall s', ph s' = ph s -> wdl s' = wdl s -> ph s' = PWriting r' tx' u' -> (r', tx', u') = (r, tx, u) /\ wdl s' = wdl s).
  { intros s' H1 H2 H3. rewrite H1, Eph in H3. inversion H3. auto. }
  destruct e as [c st| | |ok|t k|t k| | | | | |dt| |dt| | |k| ]; cbn [step]; rewrite ?Eph; cbn [listens reading fst];
    try (apply Hsame; reflexivity).
  - (* EvSubmit *) destruct (Nat.eqb (handles s) 0); [apply Hsame; reflexivity|]. destruct (_ && _); [apply Hsame; reflexivity|].
    destruct st; apply Hsame; reflexivity.
  - (* EvTimer *) destruct (Nat.eqb (wpark s) 0 && (fire cfg u <=? now s)); [cbn [fst written ph set_ph]; intros E; discriminate|].
    destruct (fire cfg (wdl s) <=? now s); [|apply Hsame; reflexivity].
    intros E. destruct (finish_summary s r (RErr write_timeout_error)) as (Hi & _). rewrite E in Hi. discriminate.
  - (* EvAbort *) unfold crash. cbn [fst ph set_chan set_ph]. intros E. discriminate.
  - (* EvWriteRelease *) destruct (wpark s) as [|n]; [apply Hsame; reflexivity|]. cbn [ph set_wpark]. rewrite Eph.
    destruct (Nat.eqb n 0 && _); [cbn [fst written ph set_ph]; intros E; discriminate|apply Hsame; reflexivity].
Qed.

Lemma write_timeout_exact s r tx u : ph s = PWriting r tx u ->
  Nat.eqb (wpark s) 0 && (fire cfg u <=? now s) = false ->
  (fire cfg (wdl s) <= now s ->
     step cfg s EvTimer = (let '(s', o) := end_session (set_ph s PIdle) SeIoError in (s', [OComplete (rq_id r) (RErr ReIo)] ++ o))) /\
  (now s < fire cfg (wdl s) -> step cfg s EvTimer = (s, [])).
Proof.
  intros Eph Hw. cbn [step]. rewrite Eph, Hw. split; intros H.
  - destruct (N.leb_spec (fire cfg (wdl s)) (now s)); [|lia]. reflexivity.
  - destruct (N.leb_spec (fire cfg (wdl s)) (now s)); [lia|]. reflexivity.
Qed.

Lemma write_done_first s r tx u : ph s = PWriting r tx u -> wpark s = 0%nat -> fire cfg u <= now s ->
  step cfg s EvTimer = (set_ph s (PInFlight r tx (now s + rq_timeout r)), [OWire tx (rq_id r)]).
Proof.
  intros Eph Hw Hu. cbn [step]. rewrite Eph, Hw. destruct (N.leb_spec (fire cfg u) (now s)); [reflexivity|lia].
Qed.

Lemma release_finishes s r tx u : ph s = PWriting r tx u -> wpark s = 1%nat -> fire cfg u <= now s ->
  step cfg s EvWriteRelease = (set_ph (set_wpark s 0) (PInFlight r tx (now s + rq_timeout r)), [OWire tx (rq_id r)]).
Proof.
  intros Eph Hw Hu. cbn [step]. rewrite Hw. cbn [ph set_wpark now]. rewrite Eph. cbn [Nat.eqb andb].
  destruct (N.leb_spec (fire cfg u) (now s)); [reflexivity|lia].
Qed.

Lemma saturate_quiescent : forall fuel s, let '(s', o, ok) := saturate cfg fuel s in ok = true -> timer_due cfg s' = false /\ recv_ready s' = false.
Proof.
  induction fuel as [|f IH]; intros s; cbn [saturate].
  - intros H. apply negb_true_iff, orb_false_iff in H. exact H.
  - destruct (timer_due cfg s) eqn:Et.
    + destruct (step cfg s EvTimer) as [s1 o1]. specialize (IH s1). destruct (saturate cfg f s1) as [[s2 o2] ok]. exact IH.
    + destruct (recv_ready s) eqn:Er.
      * destruct (step cfg s EvRecv) as [s1 o1]. specialize (IH s1). destruct (saturate cfg f s1) as [[s2 o2] ok]. exact IH.
      * auto.
Qed.

Lemma eager_quiescent : forall es s, es <> [] ->
  let '(s', o, ok) := run_eager cfg s es in ok = true -> timer_due cfg s' = false.
Proof.
  induction es as [|e es IH]; intros s Hne; [congruence|]. cbn [run_eager].
  destruct (step cfg s e) as [s1 o1]. pose proof (saturate_quiescent (fuel_for s1) s1) as Hs.
  destruct (saturate cfg (fuel_for s1) s1) as [[s2 o2] ok2].
  destruct es as [|e' es'].
  - cbn [run_eager]. intros H. rewrite andb_true_r in H. apply Hs in H. tauto.
  - specialize (IH s2). destruct (run_eager cfg s2 (e' :: es')) as [[s3 o3] ok3]. intros H. apply andb_prop in H. apply IH; [discriminate|tauto].
Qed.

(* the step-indexed run used for rendering is run_eager with one more label per output *)
Lemma run_eager_ix_erase : forall es i s,
  let '(s1, o1, ok1) := run_eager_ix cfg i s es in
  let '(s2, o2, ok2) := run_eager cfg s es in
  s1 = s2 /\ map (fun x => (fst (fst x), snd x)) o1 = o2 /\ ok1 = ok2.
Proof.
  induction es as [|e es IH]; intros i s; cbn [run_eager_ix run_eager]; [auto|].
  destruct (step cfg s e) as [s1 o1]. destruct (saturate cfg (fuel_for s1) s1) as [[s2 o2] ok2].
  specialize (IH (S i) s2). destruct (run_eager_ix cfg (S i) s2 es) as [[s3 o3] ok3]. destruct (run_eager cfg s2 es) as [[s4 o4] ok4].
  destruct IH as (-> & <- & ->). repeat split. rewrite map_app, app_assoc. f_equal.
  unfold stamp_ix. rewrite map_map. erewrite map_ext; [apply map_id|]. intros [t x]. reflexivity.
Qed.

End Task.

Lemma fires_at_exact d : fires_at 1 d = d.
Proof. unfold fires_at. cbn [N.eqb]. rewrite N.div_1_r. lia. Qed.
Lemma fires_at_bounds res d : 1 <= res -> d <= fires_at res d < d + res /\ fires_at res d mod res = 0.
Proof.
  intros H. unfold fires_at. destruct (N.eqb_spec res 0); [lia|].
  split; [|apply N.mod_mul; lia]. nia.
Qed.
