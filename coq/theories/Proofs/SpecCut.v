(* A stream Spec that is "cut one frame off the head, go on with the rest" (Spec/Framing.ref, rref and
   the functions that walk the same way: ref_tail, rref_tail, rref_after) is determined by its cut.
   What holds for every such Spec is proved here once, from two facts about the cut: a frame is
   shorter than the stream it is cut from, and bytes behind a stream change nothing about a frame or
   an error found at its head. *)
From Coq Require Import NArith List Lia.
From Rodbus Require Import Base.Frame Spec.Framing Proofs.ReaderGeneric.
Import ListNotations.

(* the head of a stream: too short for a frame; malformed (the error, and what a fresh start finds
   behind it); a frame and what follows it *)
Inductive cutres := CShort | CBad (e : ferr) (left : list N) | CFrame (f : frame) (rest : list N).

Definition cframes (k : list N -> list frame * ending) (fi : fin) (c : cutres) : list frame * ending :=
  match c with CShort => ([], end_of fi) | CBad e _ => ([], EndBad e) | CFrame f rest => consf f (k rest) end.
Definition ctail (k : list N -> list N) (whole : list N) (c : cutres) : list N :=
  match c with CFrame _ rest => k rest | _ => whole end.
Definition cafter (k : list N -> list N) (c : cutres) : list N :=
  match c with CShort => [] | CBad _ l => l | CFrame _ rest => k rest end.

Section Cut.
Variable cutf : list N -> cutres.
Hypothesis cut_suffix : forall s,
  match cutf s with CShort => True | CBad _ l | CFrame _ l => exists pre, pre <> [] /\ s = pre ++ l end.
Hypothesis cut_app : forall s1 s2,
  match cutf s1 with
  | CShort => True
  | CBad e l => cutf (s1 ++ s2) = CBad e (l ++ s2)
  | CFrame f rest => cutf (s1 ++ s2) = CFrame f (rest ++ s2)
  end.

Variable rf : nat -> list N -> fin -> list frame * ending.
Hypothesis rf_O : forall s fi, rf 0 s fi = ([], EndOutOfFuel).
Hypothesis rf_S : forall F s fi, rf (S F) s fi = cframes (fun t => rf F t fi) fi (cutf s).
Variable tailf : nat -> list N -> list N.
Hypothesis tl_O : forall s, tailf 0 s = s.
Hypothesis tl_S : forall F s, tailf (S F) s = ctail (tailf F) s (cutf s).
Variable afterf : nat -> list N -> list N.
Hypothesis af_O : forall s, afterf 0 s = [].
Hypothesis af_S : forall F s, afterf (S F) s = cafter (afterf F) (cutf s).

Lemma cut_shorter s l : (exists pre : list N, pre <> [] /\ s = pre ++ l) -> length l < length s.
Proof. intros ([|x pre] & Hne & ->); [congruence|]. rewrite app_length. cbn. lia. Qed.
Lemma cut_len s f rest : cutf s = CFrame f rest -> length rest < length s.
Proof. intros E. pose proof (cut_suffix s) as H. rewrite E in H. now apply cut_shorter. Qed.

Lemma rf_fuel : forall f1 f2 s fi, length s < f1 -> length s < f2 -> rf f1 s fi = rf f2 s fi.
Proof.
  induction f1 as [|f1 IH]; intros f2 s fi H1 H2; [lia|]. destruct f2 as [|f2]; [lia|]. rewrite !rf_S.
  destruct (cutf s) as [|e l|f rest] eqn:E; try reflexivity. pose proof (cut_len _ _ _ E). cbn [cframes].
  now rewrite (IH f2) by lia.
Qed.
Lemma rf_step F s fi : length s < F -> rf F s fi = cframes (fun t => rf F t fi) fi (cutf s).
Proof.
  destruct F as [|F]; [lia|]. intros H. rewrite rf_S. destruct (cutf s) as [|e l|f rest] eqn:E; try reflexivity.
  pose proof (cut_len _ _ _ E). cbn [cframes]. now rewrite (rf_fuel F (S F)) by lia.
Qed.

Lemma tl_len : forall F s, length (tailf F s) <= length s.
Proof.
  induction F as [|F IH]; intros s; [now rewrite tl_O|]. rewrite tl_S. destruct (cutf s) as [|e l|f rest] eqn:E; cbn [ctail]; try lia.
  pose proof (cut_len _ _ _ E). specialize (IH rest). lia.
Qed.
Lemma tl_fuel : forall f1 f2 s, length s < f1 -> length s < f2 -> tailf f1 s = tailf f2 s.
Proof.
  induction f1 as [|f1 IH]; intros f2 s H1 H2; [lia|]. destruct f2 as [|f2]; [lia|]. rewrite !tl_S.
  destruct (cutf s) as [|e l|f rest] eqn:E; try reflexivity. pose proof (cut_len _ _ _ E). cbn [ctail]. apply IH; lia.
Qed.

(* the Spec over s1 ++ s2, in terms of the Spec over s1 alone (as if the stream paused there) *)
Theorem rf_app : forall F s1 s2 fi, length (s1 ++ s2) < F ->
  rf F (s1 ++ s2) fi =
  match rf F s1 FinPending with
  | (fs1, EndPending) => (fs1 ++ fst (rf F (tailf F s1 ++ s2) fi), snd (rf F (tailf F s1 ++ s2) fi))
  | x => x
  end.
Proof.
  induction F as [|F IH]; intros s1 s2 fi HF; [lia|]. rewrite (rf_S F s1), tl_S. pose proof (cut_app s1 s2) as Ha.
  destruct (cutf s1) as [|e l|f rest] eqn:E; cbn [cframes ctail end_of].
  - now destruct (rf (S F) (s1 ++ s2) fi).
  - now rewrite rf_S, Ha.
  - pose proof (cut_len _ _ _ E) as Hl. pose proof (tl_len F rest) as Ht. rewrite app_length in HF.
    rewrite rf_S, Ha. cbn [cframes]. rewrite IH by (rewrite app_length; lia).
    rewrite (rf_fuel (S F) F (tailf F rest ++ s2)) by (rewrite app_length; lia).
    destruct (rf F rest FinPending) as [fs1 e1]. cbn [consf]. now destruct e1.
Qed.

(* the same with the tail at its own fuel, and at the fuels Spec/Framing.v's ref_frames / ref_rtu_frames / mbap_tail / rtu_tail fix *)
Lemma rf_app_tail F s1 s2 fi : length (s1 ++ s2) < F ->
  rf F (s1 ++ s2) fi =
  match rf F s1 FinPending with
  | (fs1, EndPending) => (fs1 ++ fst (rf F (tailf (S (length s1)) s1 ++ s2) fi), snd (rf F (tailf (S (length s1)) s1 ++ s2) fi))
  | x => x
  end.
Proof. intros HF. rewrite (tl_fuel (S (length s1)) F s1) by (rewrite app_length in HF; lia). now apply rf_app. Qed.
Theorem frames_app s1 s2 fi :
  rf (S (length (s1 ++ s2))) (s1 ++ s2) fi =
  match rf (S (length s1)) s1 FinPending with
  | (fs1, EndPending) =>
      (fs1 ++ fst (rf (S (length (tailf (S (length s1)) s1 ++ s2))) (tailf (S (length s1)) s1 ++ s2) fi),
       snd (rf (S (length (tailf (S (length s1)) s1 ++ s2))) (tailf (S (length s1)) s1 ++ s2) fi))
  | x => x
  end.
Proof.
  pose proof (tl_len (S (length s1)) s1) as Ht. rewrite rf_app_tail by lia.
  rewrite (rf_fuel (S (length (s1 ++ s2))) (S (length s1)) s1) by (rewrite ?app_length; lia).
  now rewrite (rf_fuel (S (length (s1 ++ s2))) (S (length (tailf (S (length s1)) s1 ++ s2))) (tailf (S (length s1)) s1 ++ s2)) by (rewrite ?app_length; lia).
Qed.

Lemma af_fuel : forall f1 f2 s, length s < f1 -> length s < f2 -> afterf f1 s = afterf f2 s.
Proof.
  induction f1 as [|f1 IH]; intros f2 s H1 H2; [lia|]. destruct f2 as [|f2]; [lia|]. rewrite !af_S.
  destruct (cutf s) as [|e l|f rest] eqn:E; try reflexivity. pose proof (cut_len _ _ _ E). cbn [cafter]. apply IH; lia.
Qed.
Lemma af_step F s : length s < F -> afterf F s = cafter (afterf F) (cutf s).
Proof.
  destruct F as [|F]; [lia|]. intros H. rewrite af_S. destruct (cutf s) as [|e l|f rest] eqn:E; try reflexivity.
  pose proof (cut_len _ _ _ E). cbn [cafter]. apply af_fuel; lia.
Qed.
Lemma af_suffix : forall F s, exists pre, s = pre ++ afterf F s.
Proof.
  induction F as [|F IH]; intros s; [exists s; now rewrite af_O, app_nil_r|]. rewrite af_S. pose proof (cut_suffix s) as Hs.
  destruct (cutf s) as [|e l|f rest]; cbn [cafter]; [exists s; now rewrite app_nil_r|destruct Hs as (pre & _ & ->); now exists pre|].
  destruct Hs as (pre & _ & ->). destruct (IH rest) as [pre' Hp]. exists (pre ++ pre'). now rewrite <- app_assoc, <- Hp.
Qed.
Lemma af_len : forall F s fi fs e, rf F s fi = (fs, EndBad e) -> length (afterf F s) < length s.
Proof.
  induction F as [|F IH]; intros s fi fs e; [rewrite rf_O; discriminate|]. rewrite rf_S, af_S. pose proof (cut_suffix s) as Hs.
  destruct (cutf s) as [|e0 l|f rest]; cbn [cframes cafter]; [destruct fi; discriminate|intros _; now apply cut_shorter|].
  apply cut_shorter in Hs. destruct (rf F rest fi) as [fs' e'] eqn:Er. cbn [consf]. intros Hq; inversion Hq; subst.
  specialize (IH rest fi fs' e Er). lia.
Qed.
End Cut.
