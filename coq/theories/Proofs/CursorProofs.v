(* scursor::WriteCursor (Base/Cursor.v): a write that fits appends its bytes. *)
From Coq Require Import NArith List Lia Arith.
From Rodbus Require Import Base.Cursor.
Import ListNotations.

Definition wapp (w : wcur) (bs : list N) : wcur := {| w_cap := w_cap w; w_out := w_out w ++ bs |}.

Lemma wapp_nil w : wapp w [] = w.
Proof. destruct w as [c o]; unfold wapp; cbn [w_cap w_out]. now rewrite app_nil_r. Qed.
Lemma wapp_app w a b : wapp (wapp w a) b = wapp w (a ++ b).
Proof. unfold wapp; cbn [w_cap w_out]. now rewrite app_assoc. Qed.

Lemma wr_u8_ok w b : (length (w_out w) < w_cap w)%nat -> wr_u8 w b = Some (wapp w [b]).
Proof. intros H. unfold wr_u8. destruct (Nat.ltb_spec (length (w_out w)) (w_cap w)); [reflexivity|lia]. Qed.

(* two bytes, in either order *)
Lemma wr_pair_ok w a b : (length (w_out w) + 2 <= w_cap w)%nat ->
  match wr_u8 w a with Some w1 => wr_u8 w1 b | None => None end = Some (wapp w [a; b]).
Proof.
  intros H. rewrite wr_u8_ok by lia.
  rewrite wr_u8_ok by (unfold wapp; cbn [w_out w_cap]; rewrite app_length; cbn [length]; lia).
  now rewrite wapp_app.
Qed.

Lemma wr_u16_be_ok w v : (length (w_out w) + 2 <= w_cap w)%nat -> wr_u16_be w v = Some (wapp w (be16 v)).
Proof. exact (wr_pair_ok w (hi8 v) (lo8 v)). Qed.

Lemma wr_u16_le_ok w v : (length (w_out w) + 2 <= w_cap w)%nat -> wr_u16_le w v = Some (wapp w (le16 v)).
Proof. exact (wr_pair_ok w (lo8 v) (hi8 v)). Qed.
