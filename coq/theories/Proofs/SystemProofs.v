(* Composition: reader refinement (C05/C06) + session refinement (C01) = the server as a whole
   equals the reference (cut the stream by the framing rule, apply the reference Modbus server). *)
From Coq Require Import NArith List.
From Rodbus Require Import Gen.RtuLengths.
From Rodbus Require Base.Frame Base.ServerTypes Model.Reader Model.Server Spec.Framing Model.SystemServer Spec.SystemSpec
  Proofs.C05Proofs Proofs.C06Proofs Proofs.RtuProofs Proofs.ServerProofs.
Import ListNotations.
Module F := Rodbus.Base.Frame.
Module S := Rodbus.Base.ServerTypes.
Import SystemServer SystemSpec.

Notation bytes := Framing.bytes.

Notation frame_ok_at l := (fun f : F.frame => ServerProofs.frame_ok l (to_server_frame f)).

(* frames cut from a byte stream by the MBAP rule carry a transaction id and byte PDUs *)
Lemma ref_ok : forall fuel s fi, bytes s -> Forall (frame_ok_at S.LTcp) (fst (Framing.ref fuel s fi)).
Proof.
  induction fuel as [|fuel IH]; intros s fi Hb; [constructor|].
  cbn [Framing.ref].
  destruct s as [|t1 [|t0 [|p1 [|p0 [|l1 [|l0 [|u body]]]]]]]; try constructor.
  destruct (negb _); [constructor|].
  destruct (Nat.ltb 254 _); [constructor|].
  destruct (Nat.eqb _ 0); [constructor|].
  destruct (Nat.ltb (length body) _); [constructor|].
  pose proof (RtuProofs.bytes_skipn 7 _ Hb) as Hbody. cbn [skipn] in Hbody.
  specialize (IH (skipn (N.to_nat (Framing.be l1 l0) - 1) body) fi (RtuProofs.bytes_skipn _ _ Hbody)).
  destruct (Framing.ref fuel _ fi) as [fs e]. cbn [fst] in *.
  constructor; [|exact IH]. split; [discriminate|]. now apply RtuProofs.bytes_firstn.
Qed.

(* every frame the RTU rule cuts is carried by the stream (C06's CRC gate), so its PDU is bytes *)
Lemma rref_ok r fuel s fi : bytes s -> Forall (frame_ok_at S.LRtu) (fst (Framing.rref fuel r s fi)).
Proof.
  intros Hb. apply Forall_forall. intros f Hin.
  destruct (C06Proofs.rref_gate r fuel s fi Hb f Hin) as (pre & post & E).
  rewrite E in Hb. apply Forall_app in Hb as [_ Hb]. apply Forall_app in Hb as [Hb _].
  inversion Hb as [|? ? _ Hb']. apply Forall_app in Hb' as [Hb' _]. exact (conj I Hb').
Qed.

(* the production reader cuts the stream where the framing rule of the link does, however the
   network segments it (C05 for MBAP, C06 for RTU requests) *)
Lemma reader_cut l s chunks fi : bytes s -> concat chunks = s -> Forall (fun c => c <> []) chunks ->
  Reader.run_session (kind_of_link l) false chunks fi = ReaderGeneric.liftr (ref_cut l s fi).
Proof.
  intros Hb Hc Hne. destruct l; [exact (C05Proofs.tcp_chunking s chunks fi Hc Hne)|].
  exact (C06Proofs.rtu_chunking Request s chunks fi Hb Hc Hne).
Qed.

Lemma cut_ok l s fi : bytes s -> Forall (ServerProofs.frame_ok l) (map to_server_frame (fst (ref_cut l s fi))).
Proof. intros Hb. apply Forall_map. destruct l; [apply ref_ok|apply rref_ok]; exact Hb. Qed.

Section Sys.
Context {St : Type}.
Variable H : S.handler St.

(* for EVERY byte stream, EVERY way of cutting it into non-empty reads, EVERY handler machine,
   authorization policy and unit map, the server's replies, handler calls and final handler state are
   those of the reference server applied to the frames the link's framing rule delimits (MBAP length
   field; RTU delimiting rule and CRC gate), and the session ends exactly where and how the Spec's
   cut ends. *)
Theorem server_system_refines l a units s chunks fi :
  bytes s -> concat chunks = s -> Forall (fun c => c <> []) chunks ->
  server_system H l a units chunks fi =
    (let '(replies, units', log) := ref_server_system_result H l a units s fi in (replies, units', log, Server.SOpen),
     snd (ref_cut l s fi)).
Proof.
  intros Hb Hc Hne. unfold server_system, ref_server_system_result, ref_server_system.
  rewrite (reader_cut l s chunks fi Hb Hc Hne). cbn [ReaderGeneric.liftr fst snd]. rewrite ReaderGeneric.frames_of_map.
  rewrite (ServerProofs.session_refines H l a _ units (cut_ok l s fi Hb)). reflexivity.
Qed.
End Sys.
