(* Exports for C07 (no panic / progress) of everything modelled for C05/C06: buffer accessors,
   read_some, both parsers, the next_frame loop. Every lemma is for ALL inputs under the
   representation invariants (wf: end <= capacity; st_ok / rst_ok: states a run can reach;
   bytes: every element below 256 - only needed for RTU, where a byte count is added to an
   offset). *)
From Coq Require Import NArith List Lia.
From Rodbus Require Import Base.Outcome Base.Frame Gen.RtuLengths Model.Buffer Model.Mbap Model.Rtu Model.Reader Spec.Framing
  Proofs.BufferProofs Proofs.ReaderGeneric Proofs.MbapProofs Proofs.RtuProofs Proofs.C05Proofs.
Import ListNotations.

Definition c07_buf_read_no_panic := buf_read_no_panic.
Definition c07_buf_read_u8_no_panic := buf_read_u8_no_panic.
Definition c07_buf_peek_no_panic := buf_peek_no_panic.
Definition c07_read_some_no_panic := read_some_no_panic.
Definition read_some_progress := read_some_ok.

Definition c07_mbap_parse_no_panic := mbap_parse_no_panic.
Definition c07_rtu_parse_no_panic := rtu_parse_no_panic.

Lemma mbap_parse_preserves st b st' b' r : wf b -> st_ok st -> mbap_parse st b = (st', b', r) -> wf b' /\ st_ok st'.
Proof. intros Hwf Hst Ep. destruct (tcp_parse_consumes_prefix _ _ _ _ _ Hwf Hst Ep) as (k & _ & _ & _ & H1 & H2). now split. Qed.

(* no internal error either: the `?` on buffer accessors never fires *)
Lemma mbap_parse_no_internal st b : wf b -> st_ok st -> snd (mbap_parse st b) <> Err InternalError.
Proof.
  intros Hwf Hst. rewrite mbap_parse_eq by assumption. destruct (sparse st b) as [[st' b'] r] eqn:Es. cbn [snd].
  destruct r as [|f|e]; try discriminate. intros H; inversion H; subst.
  destruct (sparse_bad _ _ _ _ _ Es) as (_ & _ & _ & H7 & Eh).
  apply (hdr_internal (firstn 7 (b_pend b))); [|exact Eh]. rewrite firstn_length. unfold buf_len in H7. lia.
Qed.

(* progress of the reader loop: when the parser asks for more bytes the buffer can take >= 1 byte
   (C05_never_full), so every iteration of next_frame returns, errors, or consumes a new byte *)
Definition c07_tcp_never_full := tcp_never_full.
Theorem rtu_never_full : forall p st b st' b', wf b -> bytes (b_pend b) -> rst_ok st -> rtu_parse p st b = (st', b', Ok None) ->
  buf_len b' < cap /\ rst_ok st' /\ wf b' /\
  forall c, c <> [] -> exists k b'', read_some b' c = (b'', RsOk k (skipn k c)) /\ 1 <= k <= length c.
Proof.
  intros p. exact (rtu_parser p _ never_full).
Qed.

Definition next_frame_no_panic_tcp := mbap_nf_no_panic.
Definition next_frame_no_panic_rtu := rtu_nf_no_panic.

(* whole sessions, both modes (stop at the first error / keep polling after framing errors), every
   schedule: the run never panics and never runs out of fuel, i.e. the loop cannot wedge *)
Theorem session_total_tcp : forall resume n fi,
  snd (run_session KTcp resume n fi) <> EndPanic /\ snd (run_session KTcp resume n fi) <> EndOutOfFuel.
Proof. intros resume n fi. exact (mbap_parser _ session_total resume n fi (all_true n)). Qed.
Theorem session_total_rtu : forall p resume n fi, Forall bytes n ->
  snd (run_session (match p with Request => KRtuRequest | Response => KRtuResponse end) resume n fi) <> EndPanic /\
  snd (run_session (match p with Request => KRtuRequest | Response => KRtuResponse end) resume n fi) <> EndOutOfFuel.
Proof. intros p resume n fi Hb. pose proof (rtu_parser p _ session_total resume n fi Hb) as H. destruct p; exact H. Qed.
