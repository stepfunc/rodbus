(* The logging walks (Model/ClientLogging.v) never panic on well-formed data, write exactly the
   elements the decoder yields, and leave the result untouched - at every AppDecodeLevel. *)
From Coq Require Import NArith List Lia.
From Rodbus Require Import Base.Outcome Base.Cursor Base.ClientTypes Model.ClientRequest Model.ClientLogging
  Spec.ClientCodecSpec Gen.DecodeLevels Proofs.ClientCodecProofs Proofs.ClientReplyProofs
  Proofs.ClientPathsProofs.
Import ListNotations.
Local Open Scope N_scope.

(* what a display of `count` decoded elements must contain: the range, and at data_values every element *)
Definition bits_log (lv : app_level) (rg : N * N) (l : list (N * bool)) : list log_elem :=
  if al_data_values lv then LgRange rg :: map LgBit l else [LgRange rg].
Definition regs_log (lv : app_level) (rg : N * N) (l : list (N * N)) : list log_elem :=
  if al_data_values lv then LgRange rg :: map LgReg l else [LgRange rg].

Theorem bit_iter_display_spec lv bytes s n : range_wf (s, n) -> len bytes = bytes_for_bits n ->
  bit_iter_display lv bytes (s, n) = Ok (bits_log lv (s, n) (indexed s (bit_at bytes) n)).
Proof.
  unfold range_wf, is_u16, len. cbn [fst snd]. intros (Hs & Hn & H1 & Hov) Hl.
  unfold bit_iter_display, bits_log. cbn [fst snd]. destruct (al_data_values lv); [|reflexivity].
  rewrite (bit_collect_spec bytes s n) by (unfold is_u16; lia). reflexivity.
Qed.

Theorem reg_iter_display_spec lv bytes s n : range_wf (s, n) -> Forall is_u8 bytes -> len bytes = 2 * n ->
  reg_iter_display lv bytes (s, n) = Ok (regs_log lv (s, n) (indexed s (reg_at bytes) n)).
Proof.
  unfold range_wf, is_u16, len. cbn [fst snd]. intros (Hs & Hn & H1 & Hov) Hb Hl.
  unfold reg_iter_display, regs_log. cbn [fst snd]. destruct (al_data_values lv); [|reflexivity].
  rewrite (reg_next_collect_spec bytes s n) by (unfold is_u16; lia || assumption). reflexivity.
Qed.

(* WriteMultipleIterator: element k of the vector at address start + k *)
Fixpoint numbered {A} (start pos : N) (values : list A) : list (N * A) :=
  match values with [] => [] | v :: r => (start + pos, v) :: numbered start (pos + 1) r end.

Lemma wm_iter_spec {A} (values : list A) : forall start pos,
  start + pos + len values <= 65536 -> pos + len values <= 65535 ->
  wm_iter values start pos = Ok (numbered start pos values).
Proof.
  unfold len. induction values as [|v r IH]; intros start pos H1 H2; [reflexivity|].
  cbn [wm_iter numbered length] in *.
  destruct (N.ltb_spec 65535 (start + pos)); [lia|]. destruct (N.ltb_spec 65535 (pos + 1)); [lia|].
  rewrite IH by lia. reflexivity.
Qed.

Lemma numbered_length {A} (values : list A) : forall start pos, length (numbered start pos values) = length values.
Proof. induction values as [|v r IH]; intros; cbn; [reflexivity|now rewrite IH]. Qed.
Lemma numbered_nth {A} (values : list A) : forall start pos k d dv, (k < length values)%nat ->
  nth k (numbered start pos values) d = (start + pos + N.of_nat k, nth k values dv).
Proof.
  induction values as [|v r IH]; intros start pos k d dv H; [cbn in H; lia|].
  destruct k as [|k]; cbn [numbered nth]; [f_equal; lia|]. rewrite (IH start (pos + 1) k d dv) by (cbn in H; lia). f_equal. lia.
Qed.

(* "PDU TX": what is logged about a request the API constructed *)
Definition request_log (lv : app_level) (r : request) : list log_elem :=
  if negb (al_data_headers lv) then []
  else match r with
       | RReadCoils rg | RReadDiscreteInputs rg | RReadHoldingRegisters rg | RReadInputRegisters rg => [LgRange rg]
       | RWriteSingleCoil i v => [LgBit (i, v)]
       | RWriteSingleRegister i v => [LgReg (i, v)]
       | RWriteMultipleCoils rg vs => bits_log lv rg (numbered (fst rg) 0 vs)
       | RWriteMultipleRegisters rg vs => regs_log lv rg (numbered (fst rg) 0 vs)
       end.

Theorem request_display_spec lv c r : call_wf c -> build c = Ok r -> request_display lv r = Ok (request_log lv r).
Proof.
  intros Hwf Hb. pose proof (build_wf c r Hwf Hb) as Hr. pose proof (build_spec c Hwf) as S. rewrite Hb in S. destruct S as [_ ->].
  unfold request_display, request_log. destruct (negb (al_data_headers lv)); [reflexivity|].
  destruct c as [s n|s n|s n|s n|i x|i x|s vs|s vs]; try reflexivity;
    cbn [request_of request_wf] in *; unfold range_wf, is_u16 in Hr; cbn [fst snd] in *.
  - (* write multiple coils: the iterator walks all of vs without overflow *)
    rewrite wm_iter_spec by lia. unfold bits_log. now destruct (al_data_values lv).
  - rewrite wm_iter_spec by lia. unfold regs_log. now destruct (al_data_values lv).
Qed.

(* "PDU RX": what is logged about a decoded reply *)
Definition response_log (lv : app_level) (r : request) (v : response) : list log_elem :=
  match r, v with
  | (RReadCoils rg | RReadDiscreteInputs rg), RespBits l => if al_enabled lv then bits_log lv rg l else []
  | (RReadHoldingRegisters rg | RReadInputRegisters rg), RespRegisters l => if al_enabled lv then regs_log lv rg l else []
  | _, _ => echo_log lv v
  end.

Lemma bits_logged_closed lv s n rest : range_wf (s, n) ->
  bits_response_logged lv (s, n) rest =
  match parse_bits_response (s, n) rest with
  | Ok v => Ok (v, response_log lv (RReadCoils (s, n)) v)
  | Err e => Err e
  | Panic => Panic
  end.
Proof.
  intros Hwf. rewrite parse_bits_closed by assumption.
  unfold bits_response_logged. cbn [fst snd]. rewrite read_payload. change (num_bytes_for_bits n) with (bytes_for_bits n).
  destruct rest as [|bc data]; [reflexivity|].
  destruct (N.ltb_spec (len data) (bytes_for_bits n)); [reflexivity|]. destruct (N.ltb_spec (bytes_for_bits n) (len data)); [reflexivity|].
  rewrite bit_iter_display_spec by (assumption || lia).
  unfold range_wf, is_u16 in Hwf. cbn [fst snd] in Hwf.
  rewrite (bit_collect_spec data s n) by (unfold is_u16, len in *; lia). cbn [response_log]. now destruct (al_enabled lv).
Qed.

Lemma registers_logged_closed lv s n rest : range_wf (s, n) -> Forall is_u8 rest ->
  registers_response_logged lv (s, n) rest =
  match parse_registers_response (s, n) rest with
  | Ok v => Ok (v, response_log lv (RReadHoldingRegisters (s, n)) v)
  | Err e => Err e
  | Panic => Panic
  end.
Proof.
  intros Hwf Hb. rewrite parse_registers_closed by assumption.
  unfold registers_response_logged. cbn [fst snd]. replace (2 * N.to_nat n)%nat with (N.to_nat (2 * n)) by lia. rewrite read_payload.
  destruct rest as [|bc data]; [reflexivity|]. inversion Hb as [|? ? _ Hd]; subst.
  destruct (N.ltb_spec (len data) (2 * n)); [reflexivity|]. destruct (N.ltb_spec (2 * n) (len data)); [reflexivity|].
  rewrite reg_iter_display_spec by (assumption || lia).
  unfold range_wf, is_u16 in Hwf. cbn [fst snd] in Hwf.
  rewrite (reg_collect_indexed s n) by lia. cbn [response_log]. now destruct (al_enabled lv).
Qed.

(* the writes log the parsed echo *)
Lemma echo_logged {A B} (o : outcome req_err A) (g : A -> B) :
  obind o (fun v => Ok (v, g v)) = match o with Ok v => Ok (v, g v) | Err e => Err e | Panic => Panic end.
Proof. now destruct o. Qed.

Theorem handle_response_logged_spec lv r pdu : request_wf r -> Forall is_u8 pdu ->
  handle_response_logged lv r pdu =
  match handle_response r pdu with
  | Ok v => Ok (v, response_log lv r v)
  | Err e => Err e
  | Panic => Panic
  end.
Proof.
  intros Hwf Hb. unfold handle_response_logged, handle_response. destruct pdu as [|f rest]; [reflexivity|].
  inversion Hb as [|? ? _ Hr]; subst. cbn [rd_u8]. destruct (negb _); [reflexivity|].
  destruct r as [[s n]|[s n]|[s n]|[s n]|i x|i x|[s n] vs|[s n] vs]; cbn [request_wf] in Hwf.
  - exact (bits_logged_closed lv s n rest Hwf).
  - exact (bits_logged_closed lv s n rest Hwf).
  - exact (registers_logged_closed lv s n rest Hwf Hr).
  - exact (registers_logged_closed lv s n rest Hwf Hr).
  - apply echo_logged.
  - apply echo_logged.
  - apply echo_logged.
  - apply echo_logged.
Qed.

Lemma format_bytes_aux_concat : forall fuel bytes, (length bytes <= fuel)%nat -> concat (format_bytes_aux fuel bytes) = bytes.
Proof.
  induction fuel as [|f IH]; intros bytes H; [destruct bytes; [reflexivity|cbn in H; lia]|].
  destruct bytes as [|b rest]; [reflexivity|].
  change (format_bytes_aux (S f) (b :: rest)) with (firstn 18 (b :: rest) :: format_bytes_aux f (skipn 18 (b :: rest))).
  cbn [concat]. rewrite IH; [apply firstn_skipn|]. rewrite skipn_length. cbn [length] in *. lia.
Qed.
Theorem format_bytes_concat bytes : concat (format_bytes bytes) = bytes.
Proof. apply format_bytes_aux_concat. lia. Qed.
