(* Proofs about the composed server front-end (Model/ServerFront.v). The layers are NOT re-proved:
   the tracker component is related to Model/Tracker.v by a projection and the C15 lemmas are
   applied to it; the filter guard comes from the gate lemmas of FilterProofs (C16), admission from
   TlsProofs.admission (C09), the role of authorization queries from ServerTheorems.auth_log (C08). *)
From Coq Require Import NArith List Bool Lia.
From Rodbus Require Import Base.ServerTypes Gen.ServerCtors Model.Filter Spec.FilterSpec Proofs.FilterProofs
  Model.Tracker Proofs.TrackerProofs
  Spec.TlsSpec Model.Tls Proofs.TlsProofs
  Model.Server Spec.Modbus Proofs.ServerProofs Proofs.ServerProps Proofs.ServerTheorems
  Model.ServerFront.
Import ListNotations.
Local Open Scope N_scope.

Section Front.
Context {St : Type}.
Variable H : handler St.
Variable flt : afilter.
Variable tr : transport.

Notation fstep := (fstep H flt tr).
Notation frun := (frun H flt tr).
Notation establish := (establish tr).
Notation tracker_events := (tracker_events H flt tr).

Lemma track_some (f : front (St := St)) evs s' o : track f evs = Some (s', o) ->
  exists tos, Tracker.run (srv f) evs = Some (s', tos) /\ o = map Track tos.
Proof.
  unfold track. destruct (Tracker.run (srv f) evs) as [[s1 o1]|]; [|discriminate].
  intros E. inversion E; subst. now exists o1.
Qed.

Lemma find_conn_in id cs c : find_conn id cs = Some c -> In c cs /\ c_id c = id.
Proof.
  induction cs as [|x r IH]; cbn [find_conn]; [discriminate|].
  destruct (N.eqb_spec (c_id x) id).
  - intros E; inversion E; subst. split; [now left|reflexivity].
  - intros E. destruct (IH E). split; [now right|assumption].
Qed.

Lemma set_phase_in id ph cs c' : In c' (set_phase id ph cs) ->
  In c' cs \/ exists c0, find_conn id cs = Some c0 /\ c_id c' = c_id c0 /\ c_addr c' = c_addr c0 /\ c_peer c' = c_peer c0 /\ c_phase c' = ph.
Proof.
  induction cs as [|x r IH]; cbn [set_phase find_conn]; [intros []|].
  destruct (N.eqb_spec (c_id x) id).
  - intros [E|Hin]; [|left; now right]. right. exists x. subst c'. cbn. auto.
  - intros [E|Hin]; [left; now left|]. destruct (IH Hin) as [Hi|(c0 & E & R)]; [left; now right|right; now exists c0].
Qed.

(* what the front-end itself emits: the Processed record of a frame of a served, running connection *)
Definition own_output (f : front (St := St)) (e : fevent) (pre : list fout) : Prop :=
  forall x, In x pre -> exists id fr c a,
    e = FFrame id fr /\ find_conn id (conns f) = Some c /\ c_phase c = Serving a /\ alive (srv f) id = true /\
    x = Processed id (log_of (handle_frame H LTcp a (units f) fr)) (reply_of (handle_frame H LTcp a (units f) fr)).

(* where a connection of the table after the step comes from: it was there, or it is one that
   changed phase (to Serving only with what `establish` gives for its peer), or it is the connection
   just accepted, under the tracker's next id *)
Definition conns_step (f : front (St := St)) (e : fevent) (cs : list conn) : Prop :=
  forall c', In c' cs ->
    In c' (conns f) \/
    (exists c0, In c0 (conns f) /\ c_id c' = c_id c0 /\ c_addr c' = c_addr c0 /\ c_peer c' = c_peer c0 /\
       forall a, c_phase c' = Serving a -> establish (c_peer c0) = Some a) \/
    (exists addr pk, e = FAccept addr pk /\ existsb is_call_handle (on_accept accept_arm flt addr) = true /\
       running (srv f) = true /\
       c' = {| c_id := next_id (trk (srv f)); c_addr := addr; c_peer := pk;
               c_phase := match tr with PlainTcp => Serving NoAuth | TlsTransport _ _ _ => Handshaking end |}).

(* one step as the proofs below see it: the tracker component runs the tracker model on `tevs`, the
   output is the front-end's own followed by the tracker's *)
Definition effect (f : front (St := St)) (tevs : list Tracker.event) (e : fevent) (f' : front (St := St)) (o : list fout) : Prop :=
  exists tos pre, Tracker.run (srv f) tevs = Some (srv f', tos) /\ o = pre ++ map Track tos /\
    own_output f e pre /\ conns_step f e (conns f').

Lemma own_nil f e : own_output f e [].
Proof. intros x []. Qed.

Lemma conns_same f e : conns_step f e (conns f).
Proof. intros c' Hc. now left. Qed.

Lemma conns_rephase f e id ph :
  (forall a, ph = Serving a -> exists c, find_conn id (conns f) = Some c /\ establish (c_peer c) = Some a) ->
  conns_step f e (set_phase id ph (conns f)).
Proof.
  intros Hph c' Hc. destruct (set_phase_in _ _ _ _ Hc) as [Hi|(c0 & Ef & Eid & Ea & Ep & Eph)]; [now left|]. right; left.
  exists c0. destruct (find_conn_in _ _ _ Ef) as [Hc0 _]. repeat split; auto.
  intros a Ha. rewrite Eph in Ha. destruct (Hph a Ha) as (c1 & Ef1 & He). rewrite Ef in Ef1. now injection Ef1 as <-.
Qed.

(* The three ways a step ends: nothing happens; the front-end acts on its own; it runs the tracker.
   The first hypothesis of each is the equation `fstep` leaves once the case analysis of fstep_effect
   has reached a leaf, so that every leaf is closed by applying one of them. *)
Lemma effect_nop f e f' o : Some (f, []) = Some (f', o) -> effect f [] e f' o.
Proof.
  intros X; injection X as <- <-. exists [], []. split; [reflexivity|]. split; [reflexivity|]. split; [apply own_nil|apply conns_same].
Qed.

Lemma effect_local f e cs us pre f' o : Some ({| srv := srv f; conns := cs; units := us |}, pre) = Some (f', o) ->
  own_output f e pre -> conns_step f e cs -> effect f [] e f' o.
Proof. intros X Hpre Hcs; injection X as <- <-. exists [], pre. rewrite app_nil_r. now repeat split. Qed.

Lemma effect_tracked f tevs e cs us pre f' o :
  match track f tevs with
  | None => None
  | Some (s', t) => Some ({| srv := s'; conns := cs; units := us |}, pre ++ t)
  end = Some (f', o) ->
  own_output f e pre -> conns_step f e cs -> effect f tevs e f' o.
Proof.
  intros X Hpre Hcs. destruct (track f tevs) as [[s' t]|] eqn:E; [|discriminate]. injection X as <- <-.
  destruct (track_some _ _ _ _ E) as (tos & R & ->). now exists tos, pre.
Qed.

Arguments own_nil {f e}.
Arguments conns_same {f e}.
Arguments effect_local {f e cs us pre f' o}.
Arguments effect_tracked {f tevs e cs us} pre {f' o}.

Lemma fstep_effect f e f' o : fstep f e = Some (f', o) -> effect f (tracker_events f e) e f' o.
Proof.
  unfold ServerFront.fstep, ServerFront.tracker_events. destruct e as [addr pk|i|i fr|i|i| | |].
  - (* FAccept *)
    destruct (existsb is_call_handle _ && running (srv f)) eqn:Eok; intros X.
    + apply andb_prop in Eok as [Eh Er]. apply (effect_tracked [] X own_nil).
      intros c' Hc. apply in_app_or in Hc. destruct Hc as [Hc|[<-|[]]]; [now left|]. right; right. now exists addr, pk.
    + exact (effect_tracked [] X own_nil conns_same).
  - (* FHandshakeDone *)
    destruct (find_conn i (conns f)) as [c|] eqn:Ef; [|apply effect_nop].
    destruct (c_phase c); try apply effect_nop.
    destruct (c_peer c) as [| |p] eqn:Ep; [|apply effect_nop|].
    (* a peer that talks, in clear or TLS: `establish` either gives the authorization it is served with
       from now on, or refuses, and the session ends *)
    all: destruct (alive (srv f) i); [|apply effect_nop].
    all: destruct (establish _) as [a|] eqn:Ee; intros X;
           [ apply (effect_local X own_nil), conns_rephase; intros a0 Y; injection Y as <-; exists c; now rewrite Ep
           | apply (effect_tracked [] X own_nil), conns_rephase; discriminate ].
  - (* FFrame *)
    destruct (find_conn i (conns f)) as [c|] eqn:Ef; [|apply effect_nop].
    destruct (c_phase c) as [|a|] eqn:Eph; try apply effect_nop.
    destruct (alive (srv f) i) eqn:Ea; [|apply effect_nop].
    assert (Hown : own_output f (FFrame i fr) [Processed i (log_of (handle_frame H LTcp a (units f) fr))
                                                          (reply_of (handle_frame H LTcp a (units f) fr))]).
    { intros x [<-|[]]. now exists i, fr, c, a. }
    unfold log_of, reply_of in Hown. destruct (handle_frame H LTcp a (units f) fr) as [[rp units'] lg]. cbn [fst snd] in *.
    destruct rp as [bytes|err|]; intros X.
    + exact (effect_local X Hown conns_same).
    + apply (effect_tracked [_] X Hown), conns_rephase. discriminate.
    + apply (effect_tracked [_] X Hown), conns_rephase. discriminate.
  - (* FPeerGone *)
    intros X. apply (effect_tracked [] X own_nil), conns_rephase. discriminate.
  - intros X. exact (effect_tracked [] X own_nil conns_same).
  - intros X. exact (effect_tracked [] X own_nil conns_same).
  - intros X. exact (effect_tracked [] X own_nil conns_same).
  - intros X. exact (effect_tracked [] X own_nil conns_same).
Qed.

Definition frun_invariant := runs_invariant fstep frun (fun _ => eq_refl) (fun _ _ _ => eq_refl).

Lemma frun_projects evs f f' o : frun f evs = Some (f', o) ->
  exists tevs tos, Tracker.run (srv f) tevs = Some (srv f', tos).
Proof.
  intros Hr. refine (frun_invariant (fun _ g => exists tevs tos, Tracker.run (srv f) tevs = Some (srv g, tos)) _ evs [] f f' o _ Hr).
  - intros _ g e g' o' (tevs & tos & R) E. destruct (fstep_effect _ _ _ _ E) as (t1 & _ & R1 & _).
    exists (tevs ++ tracker_events g e), (tos ++ t1). now rewrite tracker_run_app, R, R1.
  - now exists [], [].
Qed.

Lemma processed_origin f e f' o id log reply : fstep f e = Some (f', o) -> In (Processed id log reply) o ->
  exists fr c a, e = FFrame id fr /\ find_conn id (conns f) = Some c /\ c_phase c = Serving a /\ alive (srv f) id = true /\
    log = log_of (handle_frame H LTcp a (units f) fr) /\ reply = reply_of (handle_frame H LTcp a (units f) fr).
Proof.
  intros Hs Hin. destruct (fstep_effect _ _ _ _ Hs) as (tos & pre & _ & -> & Hpre & _).
  apply in_app_or in Hin. destruct Hin as [Hin|Hin].
  - destruct (Hpre _ Hin) as (i & fr & c & a & -> & Ef & Eph & Ea & X). injection X as <- -> ->. now exists fr, c, a.
  - apply in_map_iff in Hin. destruct Hin as (x & X & _). discriminate.
Qed.

Definition conn_ok (hist : list fevent) (c : conn) : Prop :=
  In (FAccept (c_addr c) (c_peer c)) hist /\ admits flt (c_addr c) /\
  (forall a, c_phase c = Serving a -> establish (c_peer c) = Some a).

Lemma accept_ok_admits addr : existsb is_call_handle (on_accept accept_arm flt addr) = true -> admits flt addr.
Proof.
  intros E. apply existsb_exists in E. destruct E as (x & Hin & Hx).
  apply (gate_served_only_if_admitted flt addr x Hin). destruct x; try discriminate. reflexivity.
Qed.

Lemma step_conn_ok hist f e f' o : (forall c, In c (conns f) -> conn_ok hist c) -> fstep f e = Some (f', o) ->
  forall c, In c (conns f') -> conn_ok (hist ++ [e]) c.
Proof.
  intros Hinv Hs c Hc. destruct (fstep_effect _ _ _ _ Hs) as (_ & _ & _ & _ & _ & Hcs). unfold conn_ok.
  destruct (Hcs c Hc) as [Hi|[(c0 & Hc0 & _ & Ea & Ep & Eph)|(addr & pk & -> & Hok & _ & ->)]].
  - destruct (Hinv c Hi) as (A & B & C). split; [apply in_or_app; now left|auto].
  - destruct (Hinv c0 Hc0) as (A & B & _). rewrite Ea, Ep. split; [apply in_or_app; now left|auto].
  - cbn [c_addr c_peer c_phase]. split; [apply in_or_app; right; now left|]. split; [now apply accept_ok_admits|].
    intros a. unfold ServerFront.establish. destruct tr; intros X; inversion X; reflexivity.
Qed.

Lemma frun_inv m us evs f o : frun (finit m us) evs = Some (f, o) -> forall c, In c (conns f) -> conn_ok evs c.
Proof. apply (frun_invariant (fun hist g => forall c, In c (conns g) -> conn_ok hist c) step_conn_ok evs [] (finit m us)). intros c []. Qed.

Lemma frun_split evs : forall f0 f o x, frun f0 evs = Some (f, o) -> In x o ->
  exists evs1 e evs2 f1 o1 f2 o2, evs = evs1 ++ e :: evs2 /\ frun f0 evs1 = Some (f1, o1) /\ fstep f1 e = Some (f2, o2) /\ In x o2.
Proof.
  induction evs as [|e r IH]; intros f0 f o x Hr Hin.
  - injection Hr as _ <-. destruct Hin.
  - destruct (runs_cons fstep frun (fun _ _ _ => eq_refl) _ _ _ _ _ Hr) as (f1 & o1 & o2 & E1 & E2 & ->).
    apply in_app_or in Hin. destruct Hin as [Hin|Hin].
    + exists [], e, r, f0, [], f1, o1. auto.
    + destruct (IH _ _ _ _ E2 Hin) as (evs1 & e' & evs2 & g1 & p1 & g2 & p2 & -> & R1 & S & Hx).
      exists (e :: evs1), e', evs2, g1, (o1 ++ p1), g2, p2. split; [reflexivity|]. split; [|auto].
      cbn [ServerFront.frun]. rewrite E1, R1. reflexivity.
Qed.

Lemma processed_conn m us evs f o id log reply : frun (finit m us) evs = Some (f, o) -> In (Processed id log reply) o ->
  exists f1 fr c a, In (FFrame id fr) evs /\ find_conn id (conns f1) = Some c /\ c_phase c = Serving a /\ conn_ok evs c /\
    log = log_of (handle_frame H LTcp a (units f1) fr).
Proof.
  intros Hr Hin. destruct (frun_split _ _ _ _ _ Hr Hin) as (evs1 & e & evs2 & f1 & o1 & f2 & o2 & -> & R1 & S & Hx).
  destruct (processed_origin _ _ _ _ _ _ _ S Hx) as (fr & c & a & -> & Ef & Eph & _ & -> & _).
  exists f1, fr, c, a. split; [apply in_or_app; right; now left|]. split; [exact Ef|]. split; [exact Eph|]. split; [|reflexivity].
  destruct (frun_inv m us evs1 f1 o1 R1 c (proj1 (find_conn_in _ _ _ Ef))) as (A & B & C).
  split; [apply in_or_app; now left|auto].
Qed.

(* what `establish` means in terms of the C09 admission Spec *)
Lemma establish_spec pk a : establish pk = Some a ->
  match tr with
  | PlainTcp => a = NoAuth
  | TlsTransport min mode authz =>
      exists p v role, pk = PeerTls p /\
        expected (endpoint_of ServerSide min mode (is_some authz) false) p = Established v role /\
        a = match authz, role with Some pol, Some r => AuthHandler pol (bytes_of_string r) | _, _ => NoAuth end
  end.
Proof.
  unfold ServerFront.establish. destruct tr as [|min mode authz]; [intros X; inversion X; reflexivity|].
  destruct pk as [| |p]; try discriminate.
  rewrite admission. destruct (expected _ p) as [v role|] eqn:E; [|discriminate].
  intros X. exists p, v, role. split; [reflexivity|]. split; [exact E|].
  destruct authz as [pol|], role as [r|]; inversion X; reflexivity.
Qed.

Lemma auth_role_of_frame a us fr k u arg r : frame_ok LTcp fr ->
  In (EvAuth k u arg r) (log_of (handle_frame H LTcp a us fr)) -> exists pol, a = AuthHandler pol r.
Proof.
  intros Hok Hin.
  assert (Ha : In (EvAuth k u arg r) (auth_events (log_of (handle_frame H LTcp a us fr)))).
  { unfold auth_events. apply filter_In. split; [exact Hin|reflexivity]. }
  rewrite (auth_log H LTcp a us fr Hok) in Ha. destruct (decode (f_pdu fr)) as [|fc|fc|fc rq]; try destruct Ha.
  destruct a as [|pol role]; cbn in Ha; [destruct Ha|]. destruct Ha as [E|[]]. inversion E; subst. now exists pol.
Qed.

Definition frames_ok (evs : list fevent) : Prop :=
  forall id fr, In (FFrame id fr) evs -> frame_ok LTcp fr.

(* Front_role: every authorization query made on behalf of a connection carries exactly the role its
   handshake extracted from the presented certificate (and there are queries only in authorization mode) *)
Lemma front_role m us evs f o id log reply k u arg r :
  frames_ok evs -> frun (finit m us) evs = Some (f, o) -> In (Processed id log reply) o -> In (EvAuth k u arg r) log ->
  exists min mode pol addr p v role,
    tr = TlsTransport min mode (Some pol) /\ In (FAccept addr (PeerTls p)) evs /\ admits flt addr /\
    expected (endpoint_of ServerSide min mode true false) p = Established v (Some role) /\ r = bytes_of_string role.
Proof.
  intros Hfr Hr Hin Hev. destruct (processed_conn _ _ _ _ _ _ _ _ Hr Hin) as (f1 & fr & c & a & Hf & _ & Eph & (A & B & C) & ->).
  destruct (auth_role_of_frame a (units f1) fr k u arg r (Hfr id fr Hf) Hev) as (pol & ->).
  pose proof (establish_spec _ _ (C _ Eph)) as Hs. destruct tr as [|min mode authz]; [discriminate|].
  destruct Hs as (p & v & role & Ep & Ex & Eauth).
  destruct authz as [pol'|]; [|discriminate]. destruct role as [rs|]; [|discriminate]. inversion Eauth; subst.
  exists min, mode, pol', (c_addr c), p, v, rs. rewrite Ep in A. auto.
Qed.

Lemma stopped_srv_stays evs f f' o : running (srv f) = false -> frun f evs = Some (f', o) -> srv f' = srv f.
Proof.
  intros Hstop Hr. destruct (frun_projects _ _ _ _ Hr) as (tevs & tos & R).
  rewrite (stopped_stays _ tevs Hstop) in R. now injection R as <-.
Qed.

Lemma front_stop_closes f e f' o : running (srv f) = true -> (e = FShutdown \/ e = FHandleDropped) -> fstep f e = Some (f', o) ->
  running (srv f') = false /\ (forall id, alive (srv f') id = false) /\
  (forall id, alive (srv f) id = true -> In (Track (Closed id)) o) /\ In (Track ListenerClosed) o.
Proof.
  intros Hrun He Hs. destruct (fstep_effect _ _ _ _ Hs) as (tos & pre & R & -> & _).
  assert (Hte : exists te, (te = Tracker.Shutdown \/ te = Tracker.HandleDropped) /\ tracker_events f e = [te])
    by (destruct He as [-> | ->]; eauto).
  destruct Hte as (te & Hte & Ete). rewrite Ete in R. cbn [Tracker.run] in R.
  destruct (Tracker.step (srv f) te) as [[s1 t1]|] eqn:Es; [|discriminate]. injection R as <- <-.
  destruct (shutdown_closes_all (srv f) te s1 t1 Hrun Hte Es) as (A & _ & C & D & Ee & _).
  split; [exact A|]. split; [exact C|]. rewrite app_nil_r. split.
  - intros id Hal. apply in_or_app. right. now apply in_map, D.
  - apply in_or_app. right. now apply in_map.
Qed.

Lemma find_set_phase id ph cs c : find_conn id cs = Some c ->
  find_conn id (set_phase id ph cs) = Some {| c_id := c_id c; c_addr := c_addr c; c_peer := c_peer c; c_phase := ph |}.
Proof.
  induction cs as [|x r IH]; cbn [find_conn set_phase]; [discriminate|].
  destruct (N.eqb_spec (c_id x) id) as [E|E].
  - intros X; inversion X; subst. cbn [find_conn c_id]. now rewrite N.eqb_refl.
  - intros X. cbn [find_conn]. destruct (N.eqb_spec (c_id x) id); [contradiction|]. now apply IH.
Qed.

Lemma find_conn_app_new id cs c : (forall x, In x cs -> c_id x <> id) -> c_id c = id -> find_conn id (cs ++ [c]) = Some c.
Proof.
  intros Hno Hid. induction cs as [|x r IH]; cbn [app find_conn].
  - subst. now rewrite N.eqb_refl.
  - destruct (N.eqb_spec (c_id x) id) as [E|E]; [exfalso; apply (Hno x); [now left|exact E]|].
    apply IH. intros y Hy. apply Hno. now right.
Qed.

(* connection ids are the tracker's ids: always below the tracker's next id *)
Definition ids_below (f : front (St := St)) : Prop := forall c, In c (conns f) -> c_id c < next_id (trk (srv f)).

Lemma step_ids_below f e f' o : ids_below f -> fstep f e = Some (f', o) -> ids_below f'.
Proof.
  intros Hinv Hs c Hc. destruct (fstep_effect _ _ _ _ Hs) as (tos & _ & R & _ & _ & Hcs).
  pose proof (run_next_id _ _ _ _ R) as Hn.
  destruct (Hcs c Hc) as [Hi|[(c0 & Hc0 & -> & _)|(addr & pk & -> & Hok & Hr & ->)]].
  - specialize (Hinv c Hi). lia.
  - specialize (Hinv c0 Hc0). lia.
  - cbn [ServerFront.tracker_events accepts_processed c_id] in *. rewrite Hok, Hr in Hn. cbn [Tracker.run] in R. rewrite Hok in R.
    destruct (Tracker.step (srv f) (Accept true)) as [[s1 u1]|]; [lia|discriminate].
Qed.

Lemma front_accept_admitted m us evs f o addr pk f' o' :
  frun (finit m us) evs = Some (f, o) -> running (srv f) = true -> admits flt addr ->
  fstep f (FAccept addr pk) = Some (f', o') ->
  let id := next_id (trk (srv f)) in
  alive (srv f') id = true /\
  find_conn id (conns f') = Some {| c_id := id; c_addr := addr; c_peer := pk;
                                    c_phase := match tr with PlainTcp => Serving NoAuth | TlsTransport _ _ _ => Handshaking end |}.
Proof.
  intros Hr Hrun Hadm Hs. cbv zeta.
  assert (Hok : existsb is_call_handle (on_accept accept_arm flt addr) = true).
  { apply existsb_exists. exists CallHandle. split; [now apply gate_admitted_is_handled|reflexivity]. }
  assert (Hbelow : ids_below f)
    by (apply (frun_invariant (fun _ g => ids_below g) (fun _ => step_ids_below) evs [] (finit m us) f o); [intros c []|exact Hr]).
  destruct (frun_projects _ _ _ _ Hr) as (tevs & tos & R). cbn [finit srv] in R.
  cbn [ServerFront.fstep] in Hs. rewrite Hok, Hrun in Hs. cbn [andb] in Hs.
  destruct (track f _) as [[s' t']|] eqn:E; [|discriminate]. destruct (track_some _ _ _ _ E) as (t1 & Er & _).
  injection Hs as <- _. cbn [srv conns]. cbn [Tracker.run] in Er.
  destruct (Tracker.step (srv f) (Accept true)) as [[s1 u1]|] eqn:Es; [|discriminate]. injection Er as <- _.
  destruct (accept_spawns m tevs (srv f) tos s1 u1 R Hrun Es) as (_ & Hal & _). split; [exact Hal|].
  apply find_conn_app_new; [|reflexivity]. intros x Hx E2. specialize (Hbelow x Hx). rewrite E2 in Hbelow. exact (N.lt_irrefl _ Hbelow).
Qed.

End Front.
