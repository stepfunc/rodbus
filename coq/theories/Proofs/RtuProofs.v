(* C06: the RTU parser model, call by call, against the stream Spec `rref`; then the reader-level
   theorems by instantiating ReaderGeneric for both parser roles. As for MBAP the parser is first put in
   direct style (sfull, soffset, srtu). The Spec functions rref, rref_tail, rref_after all follow one cut
   (rcut, SpecCut.v); every sub-parser is shown to compute that cut from its state (cut_from), which gives what
   the reader theorems need about the frames and about what is left after a framing error at once. *)
From Coq Require Import NArith List Arith Lia.
From Rodbus Require Import Base.Outcome Base.Frame Gen.Consts Gen.RtuLengths Model.Buffer Model.Crc Model.Mbap Model.Rtu Model.Reader
  Spec.Framing Proofs.BufferProofs Proofs.ReaderGeneric Proofs.SpecCut Proofs.MbapProofs.
Import ListNotations.

Lemma bytes_nil : bytes []. Proof. constructor. Qed.
Lemma bytes_app a c : bytes a -> bytes c -> bytes (a ++ c). Proof. intros; now apply Forall_app. Qed.
Lemma bytes_firstn k a : bytes a -> bytes (firstn k a).
Proof. unfold bytes. intros H. revert k. induction H as [|x l Hx Hl IH]; intros [|k]; cbn [firstn]; constructor; auto. Qed.
Lemma bytes_skipn k a : bytes a -> bytes (skipn k a).
Proof. unfold bytes. intros H. revert k. induction H as [|x l Hx Hl IH]; intros [|k]; cbn [skipn]; try constructor; auto. Qed.
Lemma bytes_nth l i : bytes l -> (nth i l 0 < 256)%N.
Proof.
  intros H. destruct (Nat.lt_ge_cases i (length l)) as [Hi|Hi]; [|rewrite nth_overflow by assumption; reflexivity].
  unfold bytes in H. rewrite Forall_forall in H. apply H, nth_In, Hi.
Qed.

Definition role_of (p : ptype) : role := match p with Request => Requests | Response => Responses end.
Definition lrule_of (m : length_mode_t) : lrule := match m with Fixed n => LFixed n | Offset n => LCount n | Unknown => LUnknown end.

(* the table regenerated from serial/frame.rs::length_mode is the Modbus length rule, for every byte *)
Lemma length_mode_spec p fc : (fc < 256)%N -> lrule_of (length_mode p fc) = length_rule (role_of p) fc.
Proof.
  intros Hfc.
  assert (H : forallb (fun fc => match lrule_of (length_mode p fc), length_rule (role_of p) fc with
                                 | LFixed a, LFixed c | LCount a, LCount c => Nat.eqb a c
                                 | LUnknown, LUnknown => true | _, _ => false end) (map N.of_nat (seq 0 256)) = true)
    by (destruct p; vm_compute; reflexivity).
  rewrite forallb_forall in H. specialize (H fc). cbv beta in H.
  assert (Hin : In fc (map N.of_nat (seq 0 256))) by (rewrite <- (N2Nat.id fc); apply in_map, in_seq; lia).
  specialize (H Hin).
  destruct (lrule_of (length_mode p fc)), (length_rule (role_of p) fc); try discriminate; try reflexivity;
    apply Nat.eqb_eq in H; now subst.
Qed.
Lemma length_mode_small p fc : match length_mode p fc with Fixed n => n <= 4 | Offset n => n <= 5 | Unknown => True end.
Proof.
  unfold length_mode. destruct (andb _ _); [cbn; lia|]. destruct (fcode_get fc) as [f|]; [|exact I].
  destruct p, f; cbn; lia.
Qed.

Definition mkr (dest : N) (pdu : list N) : frame := {| f_tx := None; f_dest := dest; f_bcast := N.eqb dest 0; f_pdu := pdu |}.

Definition sfull (dest : N) (len : nat) (b : buf) : rstate * buf * sres :=
  let st := ReadFullBody dest len in
  if Nat.ltb 253 (1 + len) then (st, b, SBad (FrameLengthTooBig (1 + len) 253))
  else if Nat.ltb (buf_len b) (1 + len + 2) then (st, b, SNeed)
  else let data := firstn (1 + len) (b_pend b) in
       let rc := (nth (1 + len + 1) (b_pend b) 0 * 256 + nth (1 + len) (b_pend b) 0)%N in
       let b' := consume (1 + len + 2) b in
       if N.eqb rc (crc (dest :: data)) then (Start, b', SGot (mkr dest data))
       else (st, b', SBad (CrcValidationFailure rc (crc (dest :: data)))).
Definition soffset (dest : N) (off : nat) (b : buf) : rstate * buf * sres :=
  if Nat.ltb (buf_len b) (1 + off) then (ReadToOffsetForLength dest off, b, SNeed)
  else sfull dest (off + N.to_nat (nth off (b_pend b) 0%N)) b.
Definition srtu (p : ptype) (st : rstate) (b : buf) : rstate * buf * sres :=
  match st with
  | Start =>
      if Nat.ltb (buf_len b) 2 then (Start, b, SNeed)
      else let dest := nth 0 (b_pend b) 0%N in
           let b1 := consume 1 b in
           let fcv := nth 0 (b_pend b1) 0%N in
           match length_mode p fcv with
           | Fixed l => sfull dest l b1
           | Offset o => soffset dest o b1
           | Unknown => (Start, b1, SBad (UnknownFunctionCode fcv))
           end
  | ReadToOffsetForLength d o => soffset d o b
  | ReadFullBody d l => sfull d l b
  end.

Definition rst_ok (st : rstate) : Prop :=
  match st with Start => True | ReadFullBody _ len => 1 + len <= 253 | ReadToOffsetForLength _ off => off <= 5 end.
Definition rneed (st : rstate) : nat :=
  match st with Start => 2 | ReadFullBody _ len => 1 + len + 2 | ReadToOffsetForLength _ off => 1 + off end.
Definition rcons_need (st : rstate) : nat := match st with Start => 1 | _ => 0 end.

Lemma nth_skipn_add {A} : forall n k (l : list A) d, nth (n + k) l d = nth k (skipn n l) d.
Proof. induction n as [|n IH]; intros k l d; [reflexivity|]. destruct l; [destruct k; reflexivity|]. cbn [Nat.add nth skipn]. apply IH. Qed.

(* 600: any bound that keeps 1 + len + 2 below usize_safe and covers the largest length a run reaches, 5 + 255 *)
Lemma rtu_parse_full_eq dest len b : wf b -> len <= 600 ->
  rtu_parse_full dest len b = (let '(st, b', r) := sfull dest len b in (st, b', lift_s r)).
Proof.
  intros Hwf Hlen. unfold rtu_parse_full, sfull, rtu_function_code_length, rtu_crc_length, max_adu_length.
  rewrite uadd_ok by (ucap; lia). destruct (Nat.ltb_spec 253 (1 + len)) as [|Hle]; [reflexivity|].
  rewrite uadd_ok by (ucap; lia). destruct (Nat.ltb_spec (buf_len b) (1 + len + 2)) as [|Hge]; [reflexivity|].
  rewrite buf_read_ok by (assumption || lia).
  assert (Hfs : frame_set (firstn (1 + len) (b_pend b)) = firstn (1 + len) (b_pend b)).
  { apply frame_set_small. rewrite firstn_length. lia. }
  rewrite Hfs.
  assert (Hwf1 : wf (consume (1 + len) b)) by (apply consume_wf; [assumption|lia]).
  destruct (skipn (1 + len) (b_pend b)) as [|x [|y r]] eqn:Esk.
  - exfalso. apply (f_equal (@length N)) in Esk. rewrite skipn_length in Esk. unfold buf_len in Hge. cbn in Esk. lia.
  - exfalso. apply (f_equal (@length N)) in Esk. rewrite skipn_length in Esk. unfold buf_len in Hge. cbn in Esk. lia.
  - rewrite (buf_read_u16_le_ok (consume (1 + len) b) x y r Hwf1) by (cbn [consume b_pend]; exact Esk).
    rewrite consume_consume.
    assert (Hx : nth (1 + len) (b_pend b) 0%N = x) by (rewrite <- (Nat.add_0_r (1 + len)), nth_skipn_add, Esk; reflexivity).
    assert (Hy : nth (1 + len + 1) (b_pend b) 0%N = y) by (rewrite nth_skipn_add, Esk; reflexivity).
    rewrite Hx, Hy. fold (is_broadcast dest).
    destruct (N.eqb (y * 256 + x) (crc (dest :: firstn (1 + len) (b_pend b)))); reflexivity.
Qed.

Lemma rtu_parse_offset_eq dest off b : wf b -> bytes (b_pend b) -> off <= 5 ->
  rtu_parse_offset dest off b = (let '(st, b', r) := soffset dest off b in (st, b', lift_s r)).
Proof.
  intros Hwf Hb Hoff. unfold rtu_parse_offset, soffset, rtu_function_code_length.
  rewrite uadd_ok by (ucap; lia). destruct (Nat.ltb_spec (buf_len b) (1 + off)) as [|Hge]; [reflexivity|].
  cbn [Nat.add]. rewrite buf_peek_ok by (assumption || lia).
  pose proof (bytes_nth (b_pend b) off Hb) as Hn.
  rewrite uadd_ok by (ucap; lia). apply rtu_parse_full_eq; [assumption|lia].
Qed.

Theorem rtu_parse_eq p st b : wf b -> bytes (b_pend b) -> rst_ok st ->
  rtu_parse p st b = (let '(st', b', r) := srtu p st b in (st', b', lift_s r)).
Proof.
  intros Hwf Hb Hst. destruct st as [|d len|d off]; cbn [rtu_parse srtu].
  - destruct (Nat.ltb_spec (buf_len b) 2) as [|H2]; [reflexivity|].
    assert (Hb1 : bytes (b_pend (consume 1 b))) by (cbn [consume b_pend]; apply bytes_skipn; exact Hb).
    destruct (b_pend b) as [|a [|fcv rest]] eqn:Ep; try (unfold buf_len in H2; rewrite Ep in H2; cbn in H2; lia).
    rewrite (buf_read_u8_ok b a (fcv :: rest) Hwf Ep).
    assert (Hwf1 : wf (consume 1 b)) by (apply consume_wf; [assumption|lia]).
    assert (Hp1 : b_pend (consume 1 b) = fcv :: rest) by (cbn [consume b_pend]; now rewrite Ep).
    rewrite (buf_peek_ok 0 (consume 1 b) Hwf1) by (unfold buf_len; rewrite Hp1; cbn; lia).
    rewrite Hp1. cbn [nth].
    pose proof (length_mode_small p fcv) as Hsm. destruct (length_mode p fcv) as [l|o|].
    + apply rtu_parse_full_eq; [assumption|lia].
    + apply rtu_parse_offset_eq; assumption.
    + reflexivity.
  - apply rtu_parse_full_eq; [assumption|cbn in Hst; lia].
  - apply rtu_parse_offset_eq; assumption.
Qed.

Corollary rtu_parse_no_panic p st b : wf b -> bytes (b_pend b) -> rst_ok st -> snd (rtu_parse p st b) <> Panic.
Proof. intros Hwf Hb Hst. rewrite rtu_parse_eq by assumption. destruct (srtu p st b) as [[st' b'] r]. destruct r; discriminate. Qed.

(* what Spec/Framing.rref, rref_tail and rref_after all do at the head of a stream, and after the address byte of a
   frame whose PDU length is known *)
Definition bcut (d : N) (plen : nat) (t : list N) : cutres :=
  if Nat.ltb 253 plen then CBad (FrameLengthTooBig plen 253) t
  else if Nat.ltb (length t) (plen + 2) then CShort
  else let rc := (nth plen t 0 + 256 * nth (plen + 1) t 0)%N in
       if N.eqb rc (crc (d :: firstn plen t)) then CFrame (mkr d (firstn plen t)) (skipn (plen + 2) t)
       else CBad (CrcValidationFailure rc (crc (d :: firstn plen t))) (skipn (plen + 2) t).
Definition rcut (r : role) (s : list N) : cutres :=
  match s with
  | d :: fc :: rest =>
      match length_rule r fc with
      | LUnknown => CBad (UnknownFunctionCode fc) (fc :: rest)
      | LFixed n => bcut d (1 + n) (fc :: rest)
      | LCount off => if Nat.ltb (length (fc :: rest)) (1 + off) then CShort
                      else bcut d (1 + off + N.to_nat (nth off (fc :: rest) 0%N)) (fc :: rest)
      end
  | _ => CShort
  end.

Lemma body_cut k fi d plen t : ref_rtu_body k fi d plen t = cframes k fi (bcut d plen t).
Proof. unfold ref_rtu_body, bcut. destruct (Nat.ltb 253 plen); [reflexivity|]. destruct (Nat.ltb _ _); [reflexivity|]. now destruct (N.eqb _ _). Qed.
Lemma body_tail_cut k whole d plen t : rtu_body_tail k whole d plen t = ctail k whole (bcut d plen t).
Proof. unfold rtu_body_tail, bcut. destruct (Nat.ltb 253 plen); [reflexivity|]. destruct (Nat.ltb _ _); [reflexivity|]. now destruct (N.eqb _ _). Qed.
Lemma body_after_cut k d plen t : rtu_body_after k d plen t = cafter k (bcut d plen t).
Proof. unfold rtu_body_after, bcut. destruct (Nat.ltb 253 plen); [reflexivity|]. destruct (Nat.ltb _ _); [reflexivity|]. now destruct (N.eqb _ _). Qed.

Lemma rref_S r F s fi : rref (S F) r s fi = cframes (fun t => rref F r t fi) fi (rcut r s).
Proof.
  destruct s as [|d [|fc rest]]; try reflexivity. cbn [rref rcut].
  destruct (length_rule r fc); [apply body_cut| |reflexivity]. destruct (Nat.ltb _ _); [reflexivity|apply body_cut].
Qed.
Lemma rref_tail_S r F s : rref_tail (S F) r s = ctail (rref_tail F r) s (rcut r s).
Proof.
  destruct s as [|d [|fc rest]]; try reflexivity. cbn [rref_tail rcut].
  destruct (length_rule r fc); [apply body_tail_cut| |reflexivity]. destruct (Nat.ltb _ _); [reflexivity|apply body_tail_cut].
Qed.
Lemma rref_after_S r F s : rref_after (S F) r s = cafter (rref_after F r) (rcut r s).
Proof.
  destruct s as [|d [|fc rest]]; try reflexivity. cbn [rref_after rcut].
  destruct (length_rule r fc); [apply body_after_cut| |reflexivity]. destruct (Nat.ltb _ _); [reflexivity|apply body_after_cut].
Qed.

(* behind the address byte the cut is nothing, an unknown function code, or the cut of a body of some length *)
Lemma rcut_cases r d fc rest :
  rcut r (d :: fc :: rest) = CShort \/ rcut r (d :: fc :: rest) = CBad (UnknownFunctionCode fc) (fc :: rest) \/
  exists plen, rcut r (d :: fc :: rest) = bcut d plen (fc :: rest).
Proof. cbn [rcut]. destruct (length_rule r fc); [eauto| |auto]. destruct (Nat.ltb _ _); eauto. Qed.

Lemma bcut_suffix d plen t : match bcut d plen t with CShort => True | CBad _ l | CFrame _ l => exists pre, t = pre ++ l end.
Proof.
  unfold bcut. destruct (Nat.ltb 253 plen); [now exists []|]. destruct (Nat.ltb _ _); [exact I|].
  destruct (N.eqb _ _); exists (firstn (plen + 2) t); now rewrite firstn_skipn.
Qed.
Lemma rcut_suffix r s : match rcut r s with CShort => True | CBad _ l | CFrame _ l => exists pre, pre <> [] /\ s = pre ++ l end.
Proof.
  destruct s as [|d [|fc rest]]; try exact I.
  destruct (rcut_cases r d fc rest) as [->|[->|[plen ->]]]; [exact I|exists [d]; now split|].
  pose proof (bcut_suffix d plen (fc :: rest)) as H.
  destruct (bcut _ _ _); [exact I| |]; destruct H as [pre Hp]; exists (d :: pre); (split; [discriminate|]); cbn [app]; now rewrite <- Hp.
Qed.

Lemma bcut_app d plen t t2 :
  match bcut d plen t with
  | CShort => True
  | CBad e l => bcut d plen (t ++ t2) = CBad e (l ++ t2)
  | CFrame f rest => bcut d plen (t ++ t2) = CFrame f (rest ++ t2)
  end.
Proof.
  unfold bcut. destruct (Nat.ltb 253 plen); [reflexivity|]. destruct (Nat.ltb_spec (length t) (plen + 2)); [exact I|].
  rewrite app_length. destruct (Nat.ltb_spec (length t + length t2) (plen + 2)); [lia|].
  rewrite firstn_app_le, !app_nth1, skipn_app_le by lia. cbv zeta. now destruct (N.eqb _ _).
Qed.
Lemma rcut_app r s1 s2 :
  match rcut r s1 with
  | CShort => True
  | CBad e l => rcut r (s1 ++ s2) = CBad e (l ++ s2)
  | CFrame f rest => rcut r (s1 ++ s2) = CFrame f (rest ++ s2)
  end.
Proof.
  destruct s1 as [|d [|fc rest]]; try exact I. cbn [rcut app]. change (fc :: rest ++ s2) with ((fc :: rest) ++ s2).
  destruct (length_rule r fc); [apply bcut_app| |reflexivity].
  destruct (Nat.ltb_spec (length (fc :: rest)) (1 + off)); [exact I|]. rewrite app_length.
  destruct (Nat.ltb_spec (length (fc :: rest) + length s2) (1 + off)); [lia|]. rewrite app_nth1 by lia. apply bcut_app.
Qed.

Lemma rref_fuel r : forall f1 f2 s fi, length s < f1 -> length s < f2 -> rref f1 r s fi = rref f2 r s fi.
Proof. exact (rf_fuel (rcut r) (rcut_suffix r) (fun F s fi => rref F r s fi) (rref_S r)). Qed.
Lemma rref_step r F s fi : length s < F -> rref F r s fi = cframes (fun t => rref F r t fi) fi (rcut r s).
Proof. exact (rf_step (rcut r) (rcut_suffix r) (fun F s fi => rref F r s fi) (rref_S r) F s fi). Qed.
Lemma rref_after_step r F s : length s < F -> rref_after F r s = cafter (rref_after F r) (rcut r s).
Proof. exact (af_step (rcut r) (rcut_suffix r) (fun F s => rref_after F r s) (rref_after_S r) F s). Qed.
Lemma rref_after_len r F s fi fs e : rref F r s fi = (fs, EndBad e) -> length (rref_after F r s) < length s.
Proof.
  exact (af_len (rcut r) (rcut_suffix r) (fun F s fi => rref F r s fi) (fun _ _ => eq_refl) (rref_S r)
           (fun F s => rref_after F r s) (rref_after_S r) F s fi fs e).
Qed.
Lemma rref_after_suffix r F s : exists pre, s = pre ++ rref_after F r s.
Proof. exact (af_suffix (rcut r) (rcut_suffix r) (fun F s => rref_after F r s) (fun _ => eq_refl) (rref_after_S r) F s). Qed.

Lemma rtu_tail_len r s : length (rtu_tail r s) <= length s.
Proof. exact (tl_len (rcut r) (rcut_suffix r) (fun F s => rref_tail F r s) (fun _ => eq_refl) (rref_tail_S r) _ s). Qed.
Lemma rtu_ref_app r F s1 s2 fi : length (s1 ++ s2) < F ->
  rref F r (s1 ++ s2) fi =
  match rref F r s1 FinPending with
  | (fs1, EndPending) => (fs1 ++ fst (rref F r (rtu_tail r s1 ++ s2) fi), snd (rref F r (rtu_tail r s1 ++ s2) fi))
  | x => x
  end.
Proof.
  exact (rf_app_tail (rcut r) (rcut_suffix r) (rcut_app r) (fun F s fi => rref F r s fi) (rref_S r)
           (fun F s => rref_tail F r s) (fun _ => eq_refl) (rref_tail_S r) F s1 s2 fi).
Qed.

(* the cut seen from a parser state: the address byte (and for ReadFullBody the length) are already known *)
Definition cut_from (r : role) (st : rstate) (s : list N) : cutres :=
  match st with
  | Start => rcut r s
  | ReadToOffsetForLength d off => if Nat.ltb (length s) (1 + off) then CShort else bcut d (1 + off + N.to_nat (nth off s 0%N)) s
  | ReadFullBody d len => bcut d (1 + len) s
  end.
Lemma cut_from_short r st s : rst_ok st -> length s < rneed st -> cut_from r st s = CShort.
Proof.
  intros Hst Hn. destruct st as [|d len|d off]; cbn [cut_from rneed rst_ok] in *.
  - destruct s as [|a [|c s]]; [reflexivity|reflexivity|cbn in Hn; lia].
  - unfold bcut. destruct (Nat.ltb_spec 253 (1 + len)); [lia|]. destruct (Nat.ltb_spec (length s) (1 + len + 2)); [reflexivity|lia].
  - destruct (Nat.ltb_spec (length s) (1 + off)); [reflexivity|lia].
Qed.

Section Role.
Variable p : ptype.
Notation r := (role_of p).

(* how the Spec goes on behind a frame: the argument Spec/Framing.ref_rtu_body takes *)
Definition kont (F : nat) (fi : fin) : list N -> list frame * ending := fun s' => rref F r s' fi.

Definition rref_from (F : nat) (st : rstate) (s : list N) (fi : fin) : list frame * ending :=
  match st with
  | Start => rref F r s fi
  | ReadToOffsetForLength d off =>
      if Nat.ltb (length s) (1 + off) then ([], end_of fi)
      else ref_rtu_body (kont F fi) fi d (1 + off + N.to_nat (nth off s 0%N)) s
  | ReadFullBody d len => ref_rtu_body (kont F fi) fi d (1 + len) s
  end.
Definition rafter_from (F : nat) (st : rstate) (s : list N) : list N :=
  match st with Start => rref_after F r s | _ => cafter (rref_after F r) (cut_from r st s) end.

Lemma rref_from_cut F st s fi : (st = Start -> length s < F) -> rref_from F st s fi = cframes (kont F fi) fi (cut_from r st s).
Proof.
  intros HF. destruct st as [|d len|d off]; cbn [rref_from cut_from]; [exact (rref_step r F s fi (HF eq_refl))|apply body_cut|].
  destruct (Nat.ltb _ _); [reflexivity|apply body_cut].
Qed.
Lemma rafter_from_cut F st s : length s < F -> rafter_from F st s = cafter (rref_after F r) (cut_from r st s).
Proof. intros HF. destruct st; [now apply rref_after_step|reflexivity|reflexivity]. Qed.

(* the result of a sub-parser, with the state and buffer it leaves, read back as a cut *)
Definition cut_res (st' : rstate) (b' : buf) (fut : list N) (res : sres) : cutres :=
  match res with
  | SNeed => cut_from r st' (b_pend b' ++ fut)
  | SGot f => CFrame f (b_pend b' ++ fut)
  | SBad e => CBad e (b_pend b' ++ fut)
  end.

Lemma sfull_cut d len b st' b' res fut : sfull d len b = (st', b', res) ->
  cut_from r (ReadFullBody d len) (b_pend b ++ fut) = cut_res st' b' fut res.
Proof.
  unfold sfull. cbn [cut_from]. unfold bcut at 1. destruct (Nat.ltb_spec 253 (1 + len)); [intros Hq; inversion Hq; subst; reflexivity|].
  destruct (Nat.ltb_spec (buf_len b) (1 + len + 2)) as [|Hge].
  - intros Hq; inversion Hq; subst. cbn [cut_res cut_from]. unfold bcut. destruct (Nat.ltb_spec 253 (1 + len)); [lia|reflexivity].
  - unfold buf_len in Hge. rewrite app_length. destruct (Nat.ltb_spec (length (b_pend b) + length fut) (1 + len + 2)); [lia|].
    rewrite firstn_app_le, !app_nth1, skipn_app_le by lia. cbv zeta.
    replace (nth (1 + len) (b_pend b) 0 + 256 * nth (1 + len + 1) (b_pend b) 0)%N
      with (nth (1 + len + 1) (b_pend b) 0 * 256 + nth (1 + len) (b_pend b) 0)%N by lia.
    destruct (N.eqb _ _); intros Hq; inversion Hq; subst; reflexivity.
Qed.
(* with the byte count in the buffer, ReadToOffsetForLength and the ReadFullBody it leads to see the same cut *)
Lemma soffset_cut d off b st' b' res fut : soffset d off b = (st', b', res) ->
  cut_from r (ReadToOffsetForLength d off) (b_pend b ++ fut) = cut_res st' b' fut res.
Proof.
  unfold soffset. destruct (Nat.ltb_spec (buf_len b) (1 + off)) as [|Hge]; [intros Hq; inversion Hq; subst; reflexivity|].
  intros Hq. rewrite <- (sfull_cut _ _ _ _ _ _ fut Hq). unfold buf_len in Hge. cbn [cut_from]. rewrite app_length.
  destruct (Nat.ltb_spec (length (b_pend b) + length fut) (1 + off)); [lia|]. now rewrite app_nth1, Nat.add_assoc by lia.
Qed.
Lemma start_cut b fut : bytes (b_pend b) -> 2 <= buf_len b ->
  rcut r (b_pend b ++ fut) =
  match length_mode p (nth 0 (b_pend (consume 1 b)) 0%N) with
  | Unknown => CBad (UnknownFunctionCode (nth 0 (b_pend (consume 1 b)) 0%N)) (b_pend (consume 1 b) ++ fut)
  | Fixed l => cut_from r (ReadFullBody (nth 0 (b_pend b) 0%N) l) (b_pend (consume 1 b) ++ fut)
  | Offset o => cut_from r (ReadToOffsetForLength (nth 0 (b_pend b) 0%N) o) (b_pend (consume 1 b) ++ fut)
  end.
Proof.
  intros Hb H2. unfold buf_len in H2. cbn [consume b_pend]. destruct (b_pend b) as [|d [|fc rest]]; try (cbn in H2; lia).
  assert (Hfc : (fc < 256)%N) by (inversion Hb as [|? ? _ Hb']; now inversion Hb').
  cbn [skipn app rcut]. change (nth 0 (fc :: rest) 0%N) with fc. rewrite <- (length_mode_spec p fc Hfc).
  now destruct (length_mode p fc).
Qed.
Lemma srtu_cut st b st' b' res fut : bytes (b_pend b) -> srtu p st b = (st', b', res) ->
  cut_from r st (b_pend b ++ fut) = cut_res st' b' fut res.
Proof.
  intros Hb. destruct st as [|d len|d off]; cbn [srtu]; [|apply sfull_cut|apply soffset_cut].
  destruct (Nat.ltb_spec (buf_len b) 2) as [|H2]; [intros Hq; inversion Hq; subst; reflexivity|].
  cbv zeta. cbn [cut_from]. rewrite (start_cut b fut Hb H2).
  destruct (length_mode p _); [apply sfull_cut|apply soffset_cut|intros Hq; inversion Hq; subst; reflexivity].
Qed.

(* what a sub-parser consumes and the state it leaves: it waits without consuming, in a state that needs more than is
   pending; it delivers a frame back in Start *)
Definition sub_ok (b : buf) (st' : rstate) (b' : buf) (res : sres) : Prop :=
  exists k, b' = consume k b /\ k <= buf_len b /\
  match res with
  | SNeed => k = 0 /\ rst_ok st' /\ buf_len b < rneed st' /\ rcons_need st' = 0
  | SGot _ => st' = Start
  | SBad _ => True
  end.
Lemma sfull_ok d len b st' b' res : sfull d len b = (st', b', res) -> sub_ok b st' b' res.
Proof.
  unfold sfull. destruct (Nat.ltb_spec 253 (1 + len)).
  { intros Hq; inversion Hq; subst. exists 0. rewrite consume_0. repeat split; lia. }
  destruct (Nat.ltb_spec (buf_len b) (1 + len + 2)).
  - intros Hq; inversion Hq; subst. exists 0. rewrite consume_0. cbn [rst_ok rneed rcons_need]. repeat split; lia.
  - destruct (N.eqb _ _); intros Hq; inversion Hq; subst; exists (1 + len + 2); repeat split; assumption.
Qed.
Lemma soffset_ok d off b st' b' res : off <= 5 -> soffset d off b = (st', b', res) -> sub_ok b st' b' res.
Proof.
  intros Hoff. unfold soffset. destruct (Nat.ltb_spec (buf_len b) (1 + off)); [|apply sfull_ok].
  intros Hq; inversion Hq; subst. exists 0. rewrite consume_0. cbn [rst_ok rneed rcons_need]. repeat split; lia.
Qed.

Definition call_ok (st : rstate) (b : buf) (st' : rstate) (b' : buf) (res : sres) : Prop :=
  exists k, b' = consume k b /\ k <= buf_len b /\
  match res with
  | SNeed => rst_ok st' /\ buf_len b' < rneed st' /\ rcons_need st <= k + rcons_need st'
  | SGot _ => st' = Start /\ rcons_need st <= k
  | SBad _ => rcons_need st <= k
  end.
(* a sub-parser entered after j bytes of the call have been consumed *)
Lemma sub_ok_call_ok st b j st' b' res : j <= buf_len b -> rcons_need st <= j -> sub_ok (consume j b) st' b' res -> call_ok st b st' b' res.
Proof.
  intros Hj Hc (k & -> & Hk & H). rewrite consume_len in Hk. exists (j + k). rewrite consume_consume.
  split; [reflexivity|]. split; [lia|]. destruct res as [|f|e]; [|split; [assumption|lia]|lia].
  destruct H as (-> & Hok & Hlt & _). rewrite Nat.add_0_r, consume_len in *. repeat split; auto; lia.
Qed.
Lemma srtu_ok st b st' b' res : rst_ok st -> srtu p st b = (st', b', res) -> call_ok st b st' b' res.
Proof.
  intros Hst. destruct st as [|d len|d off]; cbn [srtu].
  - destruct (Nat.ltb_spec (buf_len b) 2) as [Hlt|H2].
    + intros Hq; inversion Hq; subst. exists 0. rewrite consume_0. cbn [rst_ok rcons_need rneed]. repeat split; auto; lia.
    + pose proof (length_mode_small p (nth 0 (b_pend (consume 1 b)) 0%N)) as Hsm.
      destruct (length_mode p _) as [l|o|]; intros Hq.
      * apply (sub_ok_call_ok Start b 1); [lia|cbn; lia|exact (sfull_ok _ _ _ _ _ _ Hq)].
      * apply (sub_ok_call_ok Start b 1); [lia|cbn; lia|exact (soffset_ok _ _ _ _ _ _ Hsm Hq)].
      * inversion Hq; subst. exists 1. cbn [rcons_need]. repeat split; lia.
  - intros Hq. apply (sub_ok_call_ok _ b 0); [lia|cbn; lia|rewrite consume_0; exact (sfull_ok _ _ _ _ _ _ Hq)].
  - intros Hq. apply (sub_ok_call_ok _ b 0); [lia|cbn; lia|rewrite consume_0; exact (soffset_ok _ _ _ _ _ _ Hst Hq)].
Qed.

Lemma rstuck st s F fi : rst_ok st -> length s < rneed st -> 0 < F -> rref_from F st s fi = ([], end_of fi).
Proof.
  intros Hst Hn HF. destruct st as [|d len|d off].
  - destruct F as [|F]; [lia|]. pose proof (cut_from_short r Start s Hst Hn) as E. cbn [rref_from cut_from] in *. now rewrite rref_S, E.
  - rewrite rref_from_cut by discriminate. now rewrite cut_from_short.
  - rewrite rref_from_cut by discriminate. now rewrite cut_from_short.
Qed.
Lemma rneed_cap st : rst_ok st -> rneed st <= cap.
Proof. destruct st; cbn; unfold cap, buffer_capacity; lia. Qed.

Lemma rtu_call st b st' b' pr : wf b -> bytes (b_pend b) -> rst_ok st -> rtu_parse p st b = (st', b', pr) ->
  exists res, pr = lift_s res /\ call_ok st b st' b' res /\ forall fut, cut_from r st (b_pend b ++ fut) = cut_res st' b' fut res.
Proof.
  intros Hwf Hb Hst Ep. rewrite (rtu_parse_eq p st b Hwf Hb Hst) in Ep.
  destruct (srtu p st b) as [[st0 b0] res] eqn:Es. inversion Ep; subst. exists res. split; [reflexivity|].
  split; [exact (srtu_ok _ _ _ _ _ Hst Es)|]. intros fut. exact (srtu_cut _ _ _ _ _ fut Hb Es).
Qed.

Lemma rtu_none st b st' b' : wf b -> bytes (b_pend b) -> rst_ok st -> rtu_parse p st b = (st', b', Ok None) ->
  rst_ok st' /\ buf_len b' < rneed st' /\
  (exists k, b' = consume k b /\ k <= buf_len b /\ rcons_need st <= k + rcons_need st') /\
  (forall fut F fi, length (b_pend b ++ fut) < F -> rref_from F st (b_pend b ++ fut) fi = rref_from F st' (b_pend b' ++ fut) fi).
Proof.
  intros Hwf Hb Hst Ep. destruct (rtu_call _ _ _ _ _ Hwf Hb Hst Ep) as (res & E & Hok & Hcut). destruct res; try discriminate.
  destruct Hok as (k & -> & Hk & Hst' & Hlt & Hc).
  repeat split; [assumption..|eauto|]. intros fut F fi HF. destruct (consume_split k b fut Hk) as [_ Hl].
  rewrite !rref_from_cut by (intros _; lia). now rewrite Hcut.
Qed.
Lemma rtu_some st b st' b' f : wf b -> bytes (b_pend b) -> rst_ok st -> rtu_parse p st b = (st', b', Ok (Some f)) ->
  st' = Start /\ (exists k, b' = consume k b /\ k <= buf_len b /\ rcons_need st <= k) /\
  (forall fut F fi, length (b_pend b ++ fut) < F -> rref_from F st (b_pend b ++ fut) fi = consf f (rref F r (b_pend b' ++ fut) fi)).
Proof.
  intros Hwf Hb Hst Ep. destruct (rtu_call _ _ _ _ _ Hwf Hb Hst Ep) as (res & E & Hok & Hcut). destruct res as [|f0|]; try discriminate.
  inversion E; subst f0. destruct Hok as (k & -> & Hk & -> & Hc). repeat split; [eauto|]. intros fut F fi HF.
  rewrite rref_from_cut by (intros _; exact HF). now rewrite Hcut.
Qed.
Lemma rtu_err st b st' b' e : wf b -> bytes (b_pend b) -> rst_ok st -> rtu_parse p st b = (st', b', Err e) ->
  (exists k, b' = consume k b /\ k <= buf_len b /\ rcons_need st <= k) /\
  (forall fut F fi, length (b_pend b ++ fut) < F -> rref_from F st (b_pend b ++ fut) fi = ([], EndBad e)).
Proof.
  intros Hwf Hb Hst Ep. destruct (rtu_call _ _ _ _ _ Hwf Hb Hst Ep) as (res & E & Hok & Hcut). destruct res as [| |e0]; try discriminate.
  inversion E; subst e0. destruct Hok as (k & -> & Hk & Hc). split; [eauto|]. intros fut F fi HF. rewrite rref_from_cut by (intros _; exact HF). now rewrite Hcut.
Qed.
Lemma rtu_panic st b st' b' : wf b -> bytes (b_pend b) -> rst_ok st -> rtu_parse p st b <> (st', b', Panic).
Proof. intros Hwf Hb Hst Ep. pose proof (rtu_parse_no_panic p st b Hwf Hb Hst) as H. rewrite Ep in H. now apply H. Qed.

Lemma rtu_HA_none st b st' b' : wf b -> bytes (b_pend b) -> rst_ok st -> rtu_parse p st b = (st', b', Ok None) ->
  forall fut F, length (b_pend b ++ fut) < F -> rafter_from F st (b_pend b ++ fut) = rafter_from F st' (b_pend b' ++ fut).
Proof.
  intros Hwf Hb Hst Ep fut F HF. destruct (rtu_call _ _ _ _ _ Hwf Hb Hst Ep) as (res & E & (k & -> & Hk & _) & Hcut). destruct res; try discriminate.
  destruct (consume_split k b fut Hk) as [_ Hl]. rewrite !rafter_from_cut by lia. now rewrite Hcut.
Qed.
Lemma rtu_HA_some st b st' b' f : wf b -> bytes (b_pend b) -> rst_ok st -> rtu_parse p st b = (st', b', Ok (Some f)) ->
  forall fut F, length (b_pend b ++ fut) < F -> rafter_from F st (b_pend b ++ fut) = rref_after F r (b_pend b' ++ fut).
Proof.
  intros Hwf Hb Hst Ep fut F HF. destruct (rtu_call _ _ _ _ _ Hwf Hb Hst Ep) as (res & E & _ & Hcut). destruct res; try discriminate.
  rewrite rafter_from_cut by exact HF. now rewrite Hcut.
Qed.
Lemma rtu_HA_err st b st' b' e : wf b -> bytes (b_pend b) -> rst_ok st -> rtu_parse p st b = (st', b', Err e) ->
  forall fut F, length (b_pend b ++ fut) < F -> rafter_from F st (b_pend b ++ fut) = b_pend b' ++ fut.
Proof.
  intros Hwf Hb Hst Ep fut F HF. destruct (rtu_call _ _ _ _ _ Hwf Hb Hst Ep) as (res & E & _ & Hcut). destruct res; try discriminate.
  rewrite rafter_from_cut by exact HF. now rewrite Hcut.
Qed.

Let H_mk : forall st b, parser_parse (PRtu p st) b = let '(st', b', r) := rtu_parse p st b in (PRtu p st', b', r).
Proof. reflexivity. Qed.

Definition rtu_nf_ref := nf_ref rstate (PRtu p) (rtu_parse p) Start rst_ok rneed rcons_need (fun F s fi => rref F r s fi) rref_from
  bytes bytes_nil bytes_app bytes_firstn bytes_skipn
  H_mk (fun _ => eq_refl) I (fun _ _ _ => eq_refl) ltac:(cbn; lia) rneed_cap rstuck rtu_none rtu_some rtu_err rtu_panic.
Definition rtu_run_ref := run_ref rstate (PRtu p) (rtu_parse p) Start rst_ok rneed rcons_need (fun F s fi => rref F r s fi) rref_from
  bytes bytes_nil bytes_app bytes_firstn bytes_skipn
  H_mk (fun _ => eq_refl) I (fun _ _ _ => eq_refl) ltac:(cbn; lia) rneed_cap rstuck rtu_none rtu_some rtu_err rtu_panic.
Definition rtu_nf_no_panic := nf_no_panic rstate (PRtu p) (rtu_parse p) Start rst_ok rneed rcons_need (fun F s fi => rref F r s fi) rref_from
  bytes bytes_nil bytes_app bytes_firstn bytes_skipn
  H_mk (fun _ => eq_refl) I (fun _ _ _ => eq_refl) ltac:(cbn; lia) rneed_cap rstuck rtu_none rtu_some rtu_err rtu_panic.

Lemma rtu_stable st b : wf b -> bytes (b_pend b) -> rst_ok st -> buf_len b < rneed st -> rtu_parse p st b = (st, b, Ok None).
Proof.
  intros Hwf Hb Hst Hlt. rewrite rtu_parse_eq by assumption. destruct st as [|d len|d off]; cbn [srtu rneed rst_ok] in *.
  - destruct (Nat.ltb_spec (buf_len b) 2); [reflexivity|lia].
  - unfold sfull. destruct (Nat.ltb_spec 253 (1 + len)); [lia|]. destruct (Nat.ltb_spec (buf_len b) (1 + len + 2)); [reflexivity|lia].
  - unfold soffset. destruct (Nat.ltb_spec (buf_len b) (1 + off)); [reflexivity|lia].
Qed.
End Role.

Lemma rtu_H_mk p : forall st b, parser_parse (PRtu p st) b = let '(st', b', r) := rtu_parse p st b in (PRtu p st', b', r).
Proof. reflexivity. Qed.
(* the theorems of ReaderGeneric for the RTU parser in role p *)
Section RoleInstance.
Variable p : ptype.
Definition rtu_nf_fuel_indep := nf_fuel_indep rstate (PRtu p) (rtu_parse p) Start rst_ok rneed rcons_need (fun F s fi => rref F (role_of p) s fi) (rref_from p)
  bytes bytes_nil bytes_app bytes_firstn bytes_skipn
  (rtu_H_mk p) (fun _ => eq_refl) I (fun _ _ _ => eq_refl) ltac:(cbn; lia) rneed_cap (rstuck p) (rtu_none p) (rtu_some p) (rtu_err p) (rtu_panic p) (rtu_stable p).
Definition rtu_run_st_app := run_st_app rstate (PRtu p) (rtu_parse p) Start rst_ok rneed rcons_need (fun F s fi => rref F (role_of p) s fi) (rref_from p)
  bytes bytes_nil bytes_app bytes_firstn bytes_skipn
  (rtu_H_mk p) (fun _ => eq_refl) I (fun _ _ _ => eq_refl) ltac:(cbn; lia) rneed_cap (rstuck p) (rtu_none p) (rtu_some p) (rtu_err p) (rtu_panic p) (rtu_stable p).
Definition rtu_run_ref_from := run_ref_from rstate (PRtu p) (rtu_parse p) Start rst_ok rneed rcons_need (fun F s fi => rref F (role_of p) s fi) (rref_from p)
  bytes bytes_nil bytes_app bytes_firstn bytes_skipn
  (rtu_H_mk p) (fun _ => eq_refl) I (fun _ _ _ => eq_refl) ltac:(cbn; lia) rneed_cap (rstuck p) (rtu_none p) (rtu_some p) (rtu_err p) (rtu_panic p) (rtu_stable p).
Definition rtu_run_st_pending := run_st_pending rstate (PRtu p) (rtu_parse p) Start rst_ok rneed rcons_need (fun F s fi => rref F (role_of p) s fi) (rref_from p)
  bytes bytes_nil bytes_app bytes_firstn bytes_skipn
  (rtu_H_mk p) (fun _ => eq_refl) I (fun _ _ _ => eq_refl) ltac:(cbn; lia) rneed_cap (rstuck p) (rtu_none p) (rtu_some p) (rtu_err p) (rtu_panic p) (rtu_stable p).
Definition rtu_waiting := waiting rstate (PRtu p) rst_ok rneed bytes.
Definition rtu_represents := represents rstate (PRtu p) rst_ok (fun F s fi => rref F (role_of p) s fi) (rref_from p) bytes.

(* the RTU parser in role p has the base laws of ReaderGeneric, on streams of bytes *)
Lemma rtu_parser T : for_any_parser T ->
  T rstate (PRtu p) (rtu_parse p) Start rst_ok rneed rcons_need (fun F s fi => rref F (role_of p) s fi) (rref_from p) bytes.
Proof.
  intros H. exact (H rstate (PRtu p) (rtu_parse p) Start rst_ok rneed rcons_need (fun F s fi => rref F (role_of p) s fi) (rref_from p)
    bytes bytes_nil bytes_app bytes_firstn bytes_skipn
    (rtu_H_mk p) (fun _ => eq_refl) I (fun _ _ _ => eq_refl) ltac:(cbn; lia) rneed_cap (rstuck p) (rtu_none p) (rtu_some p) (rtu_err p) (rtu_panic p)).
Qed.
End RoleInstance.
