(* Composition on the client side: reader refinement (C05) + reply decoding (C04) + the client
   task's frame handling (C11 / C12 / C10) = the client as a whole equals the reference of
   Spec/SystemClientSpec.v.  The layers are used through their theorems, not re-proved. *)
From Coq Require Import NArith List Arith Lia.
From Rodbus Require Import Base.Outcome Gen.SessionErrors.
From Rodbus Require Base.Frame Base.ClientTypes Model.Reader Model.ClientRequest Model.ClientTask Spec.Framing
  Spec.ClientCodecSpec Spec.SystemClientSpec Model.SystemClient Proofs.MbapProofs Proofs.C05Proofs
  Proofs.ClientReplyProofs Proofs.ClientBase Proofs.C10Proofs Proofs.C11Proofs Proofs.C12Proofs.
Import ListNotations.
Module F := Rodbus.Base.Frame.
Module CT := Rodbus.Base.ClientTypes.
Module CR := Rodbus.Model.ClientRequest.
Module CS := Rodbus.Spec.ClientCodecSpec.
Module T := Rodbus.Model.ClientTask.
Module SS := Rodbus.Spec.SystemClientSpec.
Import SystemClient.
Local Open Scope N_scope.

Lemma reply_verdict r pdu : CT.request_wf r ->
  verdict_of_hresult (CR.handle_response r pdu) = SS.ref_reply_verdict r pdu.
Proof.
  intros Hwf. unfold SS.ref_reply_verdict. pose proof (ClientReplyProofs.handle_response_spec r pdu Hwf) as S.
  destruct (CS.ref_reply r pdu); [now rewrite S|].
  destruct (CS.ref_exception r pdu); [rewrite S; cbn; now rewrite ClientReplyProofs.excode_roundtrip|].
  destruct S as (e & -> & Hb). now destruct e.
Qed.

(* the class the task model reports for a handle_response result *)
Definition class_of_hresult (hr : hresult) : T.result :=
  match hr with
  | Ok _ => T.ROk
  | Err (CR.EException _) => T.RErr ReException
  | Err _ => T.RErr ReBadResponse
  | Panic => T.RErr drop_error
  end.
Lemma kind_class hr k : kind_of hr = Some k -> T.respond k = class_of_hresult hr.
Proof. destruct hr as [v|e|]; [|destruct e|]; cbn; intros E; inversion E; try reflexivity. Qed.
Lemma class_verdict hr : hr <> Panic -> task_class (verdict_of_hresult hr) = Some (class_of_hresult hr).
Proof. destruct hr as [v|e|]; [|destruct e|]; cbn; try reflexivity; intros H; congruence. Qed.

(* the Spec's verdict, given the frame that decides (if any) and the way the stream ends *)
Definition decided (mr : CT.request) (o : option F.frame) (e : F.ending) : SS.verdict :=
  match o with Some f => SS.ref_reply_verdict mr (F.f_pdu f) | None => SS.ref_end_verdict e end.

Lemma decided_value mr o e v : decided mr o e = SS.VValue v <->
  exists f, o = Some f /\ CS.ref_reply mr (F.f_pdu f) = Some v.
Proof.
  unfold decided, SS.ref_reply_verdict. destruct o as [f|].
  - split; [|intros (g & [= <-] & ->); reflexivity].
    destruct (CS.ref_reply mr (F.f_pdu f)) eqn:E; [intros [= ->]; eauto|]. destruct (CS.ref_exception mr (F.f_pdu f)); intros [=].
  - split; [destruct e; intros [=]|intros (g & [=] & _)].
Qed.

Lemma decided_exception mr o e c : decided mr o e = SS.VException c <->
  exists f, o = Some f /\ CS.ref_reply mr (F.f_pdu f) = None /\ CS.ref_exception mr (F.f_pdu f) = Some c.
Proof.
  unfold decided, SS.ref_reply_verdict. destruct o as [f|].
  - split; [|intros (g & [= <-] & -> & ->); reflexivity].
    destruct (CS.ref_reply mr (F.f_pdu f)) eqn:E; [intros [=]|]. destruct (CS.ref_exception mr (F.f_pdu f)) eqn:E2; intros [= <-]; eauto.
  - split; [destruct e; intros [=]|intros (g & [=] & _)].
Qed.

Lemma decided_bad_frame mr o e : decided mr o e = SS.VBadFrame <-> o = None /\ exists x, e = F.EndBad x.
Proof.
  unfold decided, SS.ref_reply_verdict. destruct o as [f|].
  - split; [|intros [H _]; discriminate].
    destruct (CS.ref_reply mr (F.f_pdu f)); [intros [=]|]. destruct (CS.ref_exception mr (F.f_pdu f)); intros [=].
  - split; [destruct e; intros [=]; eauto|intros [_ [x ->]]; reflexivity].
Qed.

Lemma ref_client_result_decided mr t s fi :
  SS.ref_client_result mr t s fi = decided mr (find (SS.tx_is t) (fst (Framing.ref_frames s fi))) (snd (Framing.ref_frames s fi)).
Proof. unfold SS.ref_client_result. destruct (Framing.ref_frames s fi). reflexivity. Qed.

Section Sys.
Variable cfg : T.config.
Variable reqs : content.

(* the task's part of every composition: the frames of the connection, then how it ends *)
Definition task_on (st : T.state) (fs : list F.frame) (e : F.ending) : T.state * list T.output * list (nat * hresult) :=
  let '(s1, o1, d1) := deliver cfg reqs st fs in
  let '(s2, o2) := T.run cfg s1 (end_events e) in
  (s2, o1 ++ o2, d1).

Variables (st : T.state) (r : T.request) (t d : N).
Hypothesis Hph : T.ph st = T.PInFlight r t d.
Hypothesis Hpartial : T.partial st = None.
Notation mr := (reqs (T.rq_id r)).
Hypothesis Hwf : CT.request_wf mr.

(* a frame with the request's transaction id (or with none: RTU): handle_response decides *)
Lemma frame_decides f fs : SS.tx_is t f = true ->
  exists s' o' d',
    deliver cfg reqs st (f :: fs) =
    (s', T.OComplete (T.rq_id r) (class_of_hresult (CR.handle_response mr (F.f_pdu f))) :: o',
     (T.rq_id r, CR.handle_response mr (F.f_pdu f)) :: d').
Proof.
  intros E. assert (Ht : match F.f_tx f with Some x => x | None => t end = t).
  { unfold SS.tx_is in E. destruct (F.f_tx f); [now apply N.eqb_eq|reflexivity]. }
  cbn [deliver]. unfold frame_event. rewrite Hph, Ht, N.eqb_refl.
  destruct (kind_of (CR.handle_response mr (F.f_pdu f))) as [k|] eqn:Ek.
  - destruct (C12Proofs.frame_completes cfg st r t d k Hph Hpartial) as (o1 & Ho1 & _).
    destruct (T.step cfg st (T.EvFrame t k)) as [s1 o1']. cbn [snd] in Ho1. subst o1'.
    destruct (deliver cfg reqs s1 fs) as [[s2 o2] d2].
    rewrite (kind_class _ _ Ek). cbn [app]. eexists _, _, _. reflexivity.
  - exfalso. destruct (CR.handle_response mr (F.f_pdu f)) as [v|e|] eqn:E'; [discriminate| destruct e; discriminate|].
    exact (ClientReplyProofs.response_total mr _ Hwf E').
Qed.

(* a frame with another transaction id: skipped, nothing changes *)
Lemma frame_skipped f fs : SS.tx_is t f = false -> deliver cfg reqs st (f :: fs) = deliver cfg reqs st fs.
Proof.
  unfold SS.tx_is. destruct (F.f_tx f) as [x|] eqn:Ex; [|discriminate]. intros E.
  cbn [deliver]. unfold frame_event. rewrite Hph, Ex, E. apply N.eqb_neq in E.
  destruct (C11Proofs.c11_mismatch cfg st r t d x T.RpBad Hph E) as [Hm _]. rewrite (Hm Hpartial).
  destruct (deliver cfg reqs st fs) as [[s2 o2] d2]. reflexivity.
Qed.

Lemma deliver_inflight fs :
  match find (SS.tx_is t) fs with
  | None => deliver cfg reqs st fs = (st, [], [])
  | Some f =>
      exists s' o' d',
        deliver cfg reqs st fs =
        (s', T.OComplete (T.rq_id r) (class_of_hresult (CR.handle_response mr (F.f_pdu f))) :: o',
         (T.rq_id r, CR.handle_response mr (F.f_pdu f)) :: d')
  end.
Proof.
  induction fs as [|f fs IH]; [reflexivity|]. cbn [find]. destruct (SS.tx_is t f) eqn:E.
  - now apply frame_decides.
  - rewrite frame_skipped by assumption. exact IH.
Qed.

(* next_frame's failure while the request is in flight: the request is finished with the read
   error, or the task dies *)
Lemma run_end e : snd (T.run cfg st (end_events e)) =
  match e with
  | F.EndBad _ => snd (T.finish st r (T.RErr ReBadFrame))
  | F.EndIo _ => snd (T.finish st r (T.RErr ReIo))
  | F.EndPending => []
  | F.EndPanic | F.EndOutOfFuel => snd (T.crash st)
  end.
Proof.
  assert (Hone : forall ev, snd (T.run cfg st [ev]) = snd (T.step cfg st ev)).
  { intros ev. cbn [T.run]. destruct (T.step cfg st ev). apply app_nil_r. }
  assert (Hio : forall ev, ev = T.EvEof \/ ev = T.EvIoErr -> snd (T.step cfg st ev) = snd (T.finish st r (T.RErr ReIo))).
  { intros ev [-> | ->]; cbn [T.step]; rewrite Hph; cbn [T.reading]; unfold T.on_read_error; now rewrite Hph. }
  destruct e as [fe|[]| | |]; cbn [end_events]; rewrite ?Hone.
  - cbn [T.step]. rewrite Hph, Hpartial. cbn [T.reading]. unfold T.on_read_error. now rewrite Hph.
  - apply Hio. now left.
  - apply Hio. now right.
  - reflexivity.
  - cbn [T.step]. now rewrite Hph.
  - cbn [T.step]. now rewrite Hph.
Qed.

Lemma end_inflight e :
  first_completion (T.rq_id r) (snd (T.run cfg st (end_events e))) = task_class (SS.ref_end_verdict e).
Proof.
  assert (Hfin : forall res, first_completion (T.rq_id r) (snd (T.finish st r res)) = Some res).
  { intros res. destruct (ClientBase.finish_head st r res) as [o' ->]. cbn. rewrite Nat.eqb_refl. reflexivity. }
  rewrite run_end. destruct e as [fe|k| | |]; cbn [SS.ref_end_verdict task_class]; try apply Hfin; try reflexivity.
  all: unfold T.crash; rewrite Hph; cbn; now rewrite Nat.eqb_refl.
Qed.

Lemma end_inflight_session e :
  (SS.ref_end_verdict e = SS.VBadFrame -> In (T.OEnd SeBadFrame) (snd (T.run cfg st (end_events e)))) /\
  (SS.ref_end_verdict e = SS.VIo -> In (T.OEnd SeIoError) (snd (T.run cfg st (end_events e)))).
Proof.
  assert (Hend : forall e0 se, from_request_err e0 = Some se -> In (T.OEnd se) (snd (T.finish st r (T.RErr e0)))).
  { intros e0 se Hf. pose proof (C10Proofs.finish_completions st r (T.RErr e0)) as Fc. destruct (T.finish st r (T.RErr e0)) as [s' o].
    destruct Fc as [_ Fc]. exact (Fc e0 se eq_refl Hf). }
  rewrite run_end. destruct e as [fe|k| | |]; cbn [SS.ref_end_verdict]; split; try discriminate; intros _; now apply Hend.
Qed.

(* THE composition of the task with reply decoding, for every frame list, whatever cut it: the
   first frame that matches decides; without one the way the stream ends does *)
Theorem task_on_ref fs e :
  verdict_for (T.rq_id r) (task_on st fs e) = decided mr (find (SS.tx_is t) fs) e /\
  first_completion (T.rq_id r) (snd (fst (task_on st fs e))) = task_class (decided mr (find (SS.tx_is t) fs) e).
Proof.
  unfold task_on, decided. pose proof (deliver_inflight fs) as D.
  destruct (find (SS.tx_is t) fs) as [f|].
  - destruct D as (s' & o' & d' & D). rewrite D. destruct (T.run cfg s' (end_events e)) as [s2 o2].
    cbn [verdict_for fst snd app find first_completion]. rewrite Nat.eqb_refl. split.
    + apply reply_verdict. exact Hwf.
    + rewrite <- (reply_verdict mr (F.f_pdu f) Hwf). symmetry. apply class_verdict.
      intros E. exact (ClientReplyProofs.response_total mr _ Hwf E).
  - rewrite D. pose proof (end_inflight e) as E. destruct (T.run cfg st (end_events e)) as [s2 o2]. cbn [snd fst app verdict_for find] in *.
    split; [|exact E]. rewrite E. destruct e as [fe|k| | |]; reflexivity.
Qed.

(* a framing error (or the end of the stream) before a matching frame ends the connection: the
   session-end notification is in the same run, the task is no longer connected to this stream *)
Theorem task_on_connection_ends fs e :
  (decided mr (find (SS.tx_is t) fs) e = SS.VBadFrame -> In (T.OEnd SeBadFrame) (snd (fst (task_on st fs e)))) /\
  (decided mr (find (SS.tx_is t) fs) e = SS.VIo -> In (T.OEnd SeIoError) (snd (fst (task_on st fs e)))).
Proof.
  unfold task_on, decided. pose proof (deliver_inflight fs) as D.
  destruct (find (SS.tx_is t) fs) as [f|].
  - unfold SS.ref_reply_verdict. destruct (CS.ref_reply mr (F.f_pdu f)); [split; discriminate|].
    destruct (CS.ref_exception mr (F.f_pdu f)); split; discriminate.
  - rewrite D. pose proof (end_inflight_session e) as E. destruct (T.run cfg st (end_events e)) as [s2 o2]. exact E.
Qed.

Lemma client_system_frames s chunks fi : concat chunks = s -> Forall (fun c => c <> []) chunks ->
  client_system cfg reqs st chunks fi = task_on st (fst (Framing.ref_frames s fi)) (snd (Framing.ref_frames s fi)).
Proof.
  intros Hc Hne. unfold client_system, task_on.
  rewrite (C05Proofs.tcp_chunking s chunks fi Hc Hne). cbv zeta. unfold ReaderGeneric.liftr. cbn [fst snd].
  now rewrite ReaderGeneric.frames_of_map.
Qed.

End Sys.

Definition first_with_tx (t : N) (s : list N) (fi : F.fin) : option F.frame := find (SS.tx_is t) (fst (Framing.ref_frames s fi)).

(* frames with other transaction ids change nothing: a prefix of complete frames none of which
   carries the request's id can be removed from the stream *)
Lemma find_app_none {A} (p : A -> bool) l1 l2 : Forall (fun x => p x = false) l1 -> find p (l1 ++ l2) = find p l2.
Proof. induction 1 as [|x l1 Hx _ IH]; [reflexivity|]. cbn. rewrite Hx. exact IH. Qed.

Lemma other_tx_skipped mr t pre fs s fi :
  Framing.framed pre fs -> Forall (fun f => SS.tx_is t f = false) fs ->
  SS.ref_client_result mr t (pre ++ s) fi = SS.ref_client_result mr t s fi.
Proof.
  intros Hfr Hno. unfold SS.ref_client_result, Framing.ref_frames.
  pose proof (C05Proofs.framed_len pre fs Hfr) as Hlen.
  rewrite (C05Proofs.ref_framed pre fs Hfr (S (length (pre ++ s))) s fi) by lia.
  rewrite (MbapProofs.ref_fuel (S (length (pre ++ s)) - length fs) (S (length s)) s fi) by (rewrite ?app_length; lia).
  unfold C05Proofs.prepend. destruct (Framing.ref (S (length s)) s fi) as [gs e]. cbn [fst snd].
  rewrite (find_app_none _ _ _ Hno). reflexivity.
Qed.

Definition stamp_pairs (o : list T.output) : list (N * nat) :=
  flat_map (fun x => match x with T.OStamp tx id => [(tx, id)] | _ => [] end) o.
Lemma stamps_of_pairs o : T.stamps o = map fst (stamp_pairs o).
Proof. unfold T.stamps, stamp_pairs. induction o as [|x o IH]; [reflexivity|]. cbn [flat_map]. rewrite map_app, IH. destruct x; reflexivity. Qed.

