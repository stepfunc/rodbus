(* The three submit paths build the same request / put the same bytes on the wire, and the two
   result paths deliver the same values (Model/ClientPaths.v). *)
From Coq Require Import NArith List Lia Bool.
From Rodbus Require Import Base.Outcome Base.Cursor Base.ClientTypes Model.Range Model.ClientRequest
  Model.ClientPaths Spec.ClientCodecSpec Proofs.PackProofs Proofs.ClientReplyProofs.
Import ListNotations.
Local Open Scope N_scope.

(* the signals of a rejected call, per API (the table in the header of Model/ClientPaths.v) *)
Definition rejection_of (p : path) (c : call) (e : req_err) : rejection :=
  match c with
  | CReadCoils _ _ | CReadDiscreteInputs _ _ =>
      match p with
      | ViaChannel | ViaFfi => {| rj_returned := Some e; rj_completion := None |}
      | ViaCallback => {| rj_returned := None; rj_completion := Some (CErr e) |}
      end
  | CReadHoldingRegisters _ _ | CReadInputRegisters _ _ =>
      match p with
      | ViaChannel => {| rj_returned := Some e; rj_completion := None |}
      | ViaCallback => {| rj_returned := None; rj_completion := Some (CErr e) |}
      | ViaFfi => {| rj_returned := Some e; rj_completion := Some CShutdown |}
      end
  | _ => {| rj_returned := Some e; rj_completion := None |}
  end.

Lemma read_total {A} (x : range_err + A) (mk : A -> request) : obind (of_range x) (fun r => Ok (mk r)) <> Panic.
Proof. now destruct x. Qed.
Lemma write_multiple_total {A} (mk : N * N -> list A -> request) s vs :
  obind (write_multiple_from s vs) (fun '(r, vs') => Ok (mk r vs')) <> Panic.
Proof. unfold write_multiple_from. destruct (_ <? _); [discriminate|]. now destruct (try_from s _). Qed.

Lemma build_total c : build c <> Panic.
Proof.
  destruct c as [s n|s n|s n|s n|i v|i v|s vs|s vs].
  - apply read_total.
  - apply read_total.
  - apply read_total.
  - apply read_total.
  - discriminate.
  - discriminate.
  - apply write_multiple_total.
  - apply write_multiple_total.
Qed.

(* Channel / CallbackSession / FfiChannel reads: the rejection is signalled per API *)
Lemma read_via_spec p bits mk rg :
  read_via p bits mk rg =
  match obind (of_range (if bits then of_read_bits rg else of_read_registers rg)) (fun r => Ok (mk r)) with
  | Ok r => Queued r
  | Err e => Rejected (match p with
                       | ViaChannel => {| rj_returned := Some e; rj_completion := None |}
                       | ViaCallback => {| rj_returned := None; rj_completion := Some (CErr e) |}
                       | ViaFfi => if bits then {| rj_returned := Some e; rj_completion := None |}
                                   else {| rj_returned := Some e; rj_completion := Some CShutdown |}
                       end)
  | Panic => Rejected {| rj_returned := None; rj_completion := None |}
  end.
Proof. unfold read_via. now destruct (if bits then of_read_bits rg else of_read_registers rg). Qed.

Lemma write_multiple_via_spec {A} (mk : N * N -> list A -> request) s vs :
  write_multiple_via mk s vs =
  match obind (write_multiple_from s vs) (fun '(r, vs') => Ok (mk r vs')) with
  | Ok r => Queued r
  | Err e => Rejected {| rj_returned := Some e; rj_completion := None |}
  | Panic => Rejected {| rj_returned := None; rj_completion := None |}
  end.
Proof. unfold write_multiple_via. now destruct (write_multiple_from s vs) as [[r vs']|e|]. Qed.

Theorem submit_via_spec p c :
  submit_via p c = match build c with
                   | Ok r => Queued r
                   | Err e => Rejected (rejection_of p c e)
                   | Panic => Rejected {| rj_returned := None; rj_completion := None |}
                   end.
Proof.
  destruct c as [s n|s n|s n|s n|i v|i v|s vs|s vs].
  - exact (read_via_spec p true RReadCoils (s, n)).
  - exact (read_via_spec p true RReadDiscreteInputs (s, n)).
  - exact (read_via_spec p false RReadHoldingRegisters (s, n)).
  - exact (read_via_spec p false RReadInputRegisters (s, n)).
  - reflexivity.
  - reflexivity.
  - exact (write_multiple_via_spec RWriteMultipleCoils s vs).
  - exact (write_multiple_via_spec RWriteMultipleRegisters s vs).
Qed.

Theorem paths_same_request p q c r : submit_via p c = Queued r -> submit_via q c = Queued r.
Proof.
  rewrite !submit_via_spec. destruct (build c); [auto|discriminate|discriminate].
Qed.

Theorem path_encode_spec p f tx uid c :
  path_encode p f tx uid c = match build c with Ok r => Some (client_encode f tx uid r) | _ => None end.
Proof. unfold path_encode. rewrite submit_via_spec. destruct (build c); reflexivity. Qed.

Theorem path_wire_spec p f tx uid c : path_wire p f tx uid c = submit_wire f tx uid c.
Proof. unfold path_wire, submit_wire. rewrite submit_via_spec. destruct (build c); reflexivity. Qed.

(* whichever API submits the call, the bytes are those of the Channel path's client_submit *)
Theorem path_encode_submit p f tx uid c :
  match path_encode p f tx uid c with
  | Some o => client_submit f tx uid c = o
  | None => exists e, client_submit f tx uid c = Err e /\ submit_via p c = Rejected (rejection_of p c e)
  end.
Proof.
  rewrite path_encode_spec. unfold client_submit. pose proof (build_total c) as Ht. pose proof (submit_via_spec p c) as Hs.
  destruct (build c) as [r|e|]; cbn [obind]; [reflexivity| |contradiction]. exists e. now split.
Qed.

Lemma firstn2_skipn {A} (l : list A) k d : (k + 2 <= length l)%nat ->
  firstn 2 (skipn k l) = [nth k l d; nth (k + 1) l d].
Proof.
  revert l. induction k as [|k IH]; intros l H.
  - destruct l as [|a [|b l]]; cbn in H; try lia. reflexivity.
  - destruct l as [|a l]; cbn in H; [lia|]. cbn [skipn nth plus]. apply IH. lia.
Qed.

Lemma reg_next_collect_spec bytes s n : is_u16 n -> s + n <= 65536 -> Forall is_u8 bytes ->
  length bytes = (2 * N.to_nat n)%nat ->
  forall fuel pos, pos + N.of_nat fuel = n ->
  reg_next_collect fuel bytes s n pos =
  Ok (map (fun k => (s + N.of_nat k, reg_at bytes k)) (seq (N.to_nat pos) fuel)).
Proof.
  unfold is_u16. intros Hn Hs Hb Hlen. induction fuel as [|f IH]; intros pos Hp; [reflexivity|].
  cbn [reg_next_collect seq map].
  destruct (N.eqb_spec pos n); [lia|].
  rewrite (firstn2_skipn bytes (2 * N.to_nat pos) 0) by lia.
  destruct (N.ltb_spec 65535 (pos + s)); [lia|]. destruct (N.ltb_spec 65535 (pos + 1)); [lia|].
  rewrite IH by lia. cbn [obind].
  replace (N.to_nat (pos + 1)) with (S (N.to_nat pos)) by lia.
  f_equal. f_equal. f_equal; [lia|].
  unfold reg_at. apply lor_shift8.
  assert (Hin : In (nth (2 * N.to_nat pos + 1) bytes 0) bytes) by (apply nth_In; lia).
  rewrite Forall_forall in Hb. exact (Hb _ Hin).
Qed.

Lemma parse_registers_iter_closed s n rest : range_wf (s, n) -> Forall is_u8 rest ->
  parse_registers_response_iter (s, n) rest =
  match rest with
  | [] => Err EInsufficientBytes
  | _ :: data => if len data <? 2 * n then Err EInsufficientBytes
                 else if 2 * n <? len data then Err ETrailingBytes
                 else Ok (RespRegisters (indexed s (reg_at data) n))
  end.
Proof.
  unfold range_wf, is_u16. cbn [fst snd]. intros (Hs & Hn & H1 & Hov) Hb.
  unfold parse_registers_response_iter. cbn [fst snd]. replace (2 * N.to_nat n)%nat with (N.to_nat (2 * n)) by lia. rewrite read_payload.
  destruct rest as [|bc data]; [reflexivity|]. inversion Hb as [|? ? _ Hd]; subst.
  destruct (N.ltb_spec (len data) (2 * n)); [reflexivity|]. destruct (N.ltb_spec (2 * n) (len data)); [reflexivity|].
  rewrite (reg_next_collect_spec data s n) by (unfold is_u16, len in *; lia || assumption). reflexivity.
Qed.

Theorem handle_response_iter_eq r pdu : request_wf r -> Forall is_u8 pdu ->
  handle_response_iter r pdu = handle_response r pdu.
Proof.
  intros Hwf Hb. unfold handle_response_iter, handle_response. destruct pdu as [|f rest]; [reflexivity|].
  inversion Hb as [|? ? _ Hr]; subst. cbn [rd_u8]. destruct (negb _); [reflexivity|].
  destruct r as [[s n]|[s n]|[s n]|[s n]|i x|i x|[s n] vs|[s n] vs]; cbn [details_handle_response_iter details_handle_response request_wf] in *;
    try reflexivity.
  all: rewrite parse_registers_iter_closed, parse_registers_closed by assumption; reflexivity.
Qed.

