(* Write cursor and frame formatting lemmas: a body that appends `bs` to the cursor and fits into
   the shared 260-byte buffer yields exactly the Spec's ADU, for both framings. *)
From Coq Require Import NArith List Lia Arith.
From Rodbus Require Import Base.Outcome Base.Cursor Base.ServerTypes Model.Crc Model.Format Model.Server Gen.Consts Spec.Modbus
  Proofs.CursorProofs.
Import ListNotations.
Local Open Scope N_scope.
#[local] Opaque crc.

Lemma be16_be v : Cursor.be16 v = be v.
Proof. reflexivity. Qed.

Definition tcp_hdr (tx d fv : N) : wcur := {| w_cap := buffer_capacity; w_out := be tx ++ [0; 0; 0; 0] ++ [d; fv] |}.
Definition rtu_hdr (d fv : N) : wcur := {| w_cap := buffer_capacity; w_out := [d; fv] |}.
Definition hdr_of (l : link) (tx d fv : N) : wcur := match l with LTcp => tcp_hdr tx d fv | LRtu => rtu_hdr d fv end.

Lemma hdr_cursor_ok l tx d fv : hdr_cursor l tx d fv = Ok (hdr_of l tx d fv).
Proof. destruct l; reflexivity. Qed.

(* after the longer header (MBAP, 8 bytes with the function field) the 260-byte buffer has room for a whole PDU body *)
Lemma hdr_room l tx d fv : (length (w_out (hdr_of l tx d fv)) + 252 <= w_cap (hdr_of l tx d fv))%nat.
Proof. destruct l; cbv [hdr_of tcp_hdr rtu_hdr be w_out w_cap app length buffer_capacity]; lia. Qed.

(* Model/Format.v hands the body exactly hdr_of; what remains is the length patch (MBAP) or the CRC (RTU) *)
Lemma frame_format_body l tx d fv body :
  frame_format EWrite (fmt_of l) tx d fv body =
    obind (body (hdr_of l tx d fv)) (fun w =>
      match l with
      | LTcp => Ok (patch_len (w_out w) ((N.of_nat (length (w_out w) - mbap_header_length) + 1) mod 65536))
      | LRtu => obind (Format.w EWrite (wr_u16_le w (crc (w_out w)))) (fun w' => Ok (w_out w'))
      end).
Proof. destruct l; reflexivity. Qed.

Lemma frame_format_appends l tx d fv body bs :
  body (hdr_of l tx d fv) = Ok (wapp (hdr_of l tx d fv) bs) -> (length bs <= 252)%nat ->
  frame_format EWrite (fmt_of l) tx d fv body = Ok (adu l (Some tx) d (fv :: bs)).
Proof.
  intros Hb Hlen. rewrite frame_format_body, Hb. cbn [obind]. unfold wapp, hdr_of, tcp_hdr, rtu_hdr. destruct l; cbn [w_out w_cap].
  - f_equal. unfold patch_len, adu. cbn [be app firstn skipn length]. unfold mbap_header_length.
    replace (S (S (S (S (S (S (S (S (length bs)))))))) - 7)%nat with (S (length bs)) by lia.
    rewrite (N.mod_small (N.of_nat (S (length bs)) + 1)) by lia. reflexivity.
  - rewrite wr_u16_le_ok by (cbn [w_out w_cap app length]; unfold buffer_capacity; lia).
    unfold wapp. cbn [of_option obind w_out]. unfold adu, Cursor.le16, lo8, hi8. cbn [app]. reflexivity.
Qed.

Lemma frame_format_err l tx d fv body e :
  body (hdr_of l tx d fv) = Err e -> frame_format EWrite (fmt_of l) tx d fv body = Err e.
Proof. intros Hb. rewrite frame_format_body, Hb. reflexivity. Qed.

(* the transaction id a frame must carry on its link *)
Definition tx_ok (l : link) (tx : option N) : Prop := match l with LTcp => tx <> None | LRtu => True end.
Definition txv (tx : option N) : N := match tx with Some t => t | None => 0 end.

Lemma adu_tx l tx d pdu : tx_ok l tx -> adu l (Some (txv tx)) d pdu = adu l tx d pdu.
Proof. destruct l, tx; cbn; intros; try reflexivity; congruence. Qed.

(* format_generic on a frame that carries the transaction id its link needs: no panic, and the calls
   logged are those of the body run on the header cursor *)
Lemma format_generic_tx l tx d f (body : lserializer) : tx_ok l tx ->
  format_generic l tx d f body =
    (frame_format EWrite (fmt_of l) (txv tx) (dest_value d) (ffield_value f) (fun w => fst (body w)),
     snd (body (hdr_of l (txv tx) (dest_value d) (ffield_value f)))).
Proof.
  intros Htx. unfold format_generic. destruct l, tx; try (exfalso; apply Htx; reflexivity);
    cbn [txv]; rewrite hdr_cursor_ok; reflexivity.
Qed.

Lemma format_generic_appends l tx d f (body : lserializer) bs :
  tx_ok l tx ->
  fst (body (hdr_of l (txv tx) (dest_value d) (ffield_value f))) = Ok (wapp (hdr_of l (txv tx) (dest_value d) (ffield_value f)) bs) ->
  (length bs <= 252)%nat ->
  format_generic l tx d f body =
    (Ok (adu l tx (dest_value d) (ffield_value f :: bs)), snd (body (hdr_of l (txv tx) (dest_value d) (ffield_value f)))).
Proof.
  intros Htx Hb Hlen. rewrite format_generic_tx by assumption.
  erewrite frame_format_appends; [rewrite adu_tx by assumption; reflexivity|exact Hb|exact Hlen].
Qed.

Lemma format_generic_err l tx d f (body : lserializer) e :
  tx_ok l tx ->
  fst (body (hdr_of l (txv tx) (dest_value d) (ffield_value f))) = Err e ->
  format_generic l tx d f body = (Err e, snd (body (hdr_of l (txv tx) (dest_value d) (ffield_value f)))).
Proof. intros Htx Hb. rewrite format_generic_tx by assumption. erewrite frame_format_err by exact Hb. reflexivity. Qed.

Lemma format_ex_ok l tx d f ex : tx_ok l tx ->
  format_ex l tx d f ex =
    Ok (adu l tx (dest_value d)
          [ffield_value (match f with FValid x => FException x | FException x => FException x | FUnknown x => FUnknown x end); ex]).
Proof.
  intros Htx. unfold format_ex.
  erewrite format_generic_appends with (bs := [ex]); [reflexivity|exact Htx| |cbn; lia].
  unfold ser_exception. cbn [fst]. rewrite wr_u8_ok; [reflexivity|].
  eapply Nat.lt_le_trans; [|apply hdr_room]. lia.
Qed.
