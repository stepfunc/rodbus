(* C15 with busy sessions (Model/ServerBusy.v): with the generated forwarding (try_send) the server task
   never waits and its tracker component is the tracker model on the tracker events among those
   processed; hence the refinement of Spec/BusySpec.v on top of the tracker's (TrackerProofs.step_refines). *)
From Coq Require Import NArith List Bool Arith.
From Rodbus Require Import Model.Tracker Spec.TrackerSpec Proofs.TrackerProofs Gen.ServerForward Model.ServerBusy Spec.BusySpec.
Import ListNotations.
Local Open Scope N_scope.

Lemma forwarding_is_try_send : apply_command_forwarding = ForwardTrySend.
Proof. reflexivity. Qed.
Lemma close_notice_is_never_lost : session_close_notice = NoticeSendAwait.
Proof. reflexivity. Qed.
Lemma bexpand_is_expand o : match o with Park _ | Release => True | _ => bexpand o = map BBase (expand o) end.
Proof. unfold bexpand. rewrite close_notice_is_never_lost. destruct o; exact I || reflexivity. Qed.
Lemma loop_bodies_have_no_await : apply_command_awaits = 0%nat /\ handle_awaits = 0%nat.
Proof. split; reflexivity. Qed.

(* outputs that neither defer an event nor answer or close a parked request *)
Definition quiet (o : list boutput) : Prop :=
  Forall (fun x => match x with BOut _ | BDropped _ => True | _ => False end) o.

Lemma quiet_out o : quiet (map BOut o).
Proof. apply Forall_map, Forall_forall. intros; exact I. Qed.

Lemma quiet_answers o : quiet o ->
  flat_map (fun x => match x with BAnswered id => [(id, true)] | BSocketClosed id => [(id, false)] | _ => [] end) o = [].
Proof. induction 1 as [|x o Hx _ IH]; [reflexivity|]. cbn [flat_map]. rewrite IH. now destruct x. Qed.

Lemma quiet_not_deferred o : quiet o -> ~ In BDeferred o.
Proof. intros H Hin. exact (proj1 (Forall_forall _ _) H _ Hin). Qed.

Lemma forward_try_send t : forall fl fl' o w, forward ForwardTrySend t fl = (fl', o, w) -> w = false /\ quiet o.
Proof.
  induction t as [|id r IH]; intros fl fl' o w H; cbn [forward] in H.
  - injection H as _ <- <-. split; constructor.
  - destruct (_ <? _)%nat.
    + exact (IH _ _ _ _ H).
    + destruct (forward ForwardTrySend r fl) as [[fl1 o1] w1] eqn:E. injection H as _ <- <-.
      destruct (IH _ _ _ _ E) as [-> Hq]. split; [reflexivity|now constructor].
Qed.

Definition ended_by (ev : event) (k : N) : bool :=
  match ev with PeerGone id | SessionEnded id => k =? id | _ => false end.

Lemma filter_all (l : list N) : filter (fun _ => true) l = l.
Proof. induction l; [reflexivity|]. cbn. now f_equal. Qed.

Lemma bstep_base c ev c' o : waiting c = false -> bstep ForwardTrySend c (BBase ev) = Some (c', o) ->
  (exists outs, step (base c) ev = Some (base c', outs)) /\ waiting c' = false /\ quiet o /\
  busy c' = filter (fun k => negb (ended_by ev k)) (busy c).
Proof.
  intros Hw H. unfold bstep in H. rewrite Hw in H. destruct (step (base c) ev) as [[s' outs]|] eqn:E; [|discriminate].
  (* every event but Command: the tracker's step, its outputs, and a new list of busy sessions
     (`step (base c) ev` reads `Some (s', outs)` here: the destruct above has replaced it) *)
  assert (Hplain : forall B, Some ({| base := s'; busy := B; fill := fill c; waiting := false |}, map BOut outs) = Some (c', o) ->
            (exists outs0, Some (s', outs) = Some (base c', outs0)) /\ waiting c' = false /\ quiet o /\ busy c' = B).
  { intros B X. injection X as <- <-. repeat split; [now exists outs|apply quiet_out]. }
  destruct ev; cbn [ended_by negb]; rewrite ?filter_all; try exact (Hplain _ H).
  destruct (running (base c)); [|exact (Hplain _ H)].
  destruct (forward _ _ _) as [[fl d] w] eqn:F. injection H as <- <-. cbn [base waiting busy].
  destruct (forward_try_send _ _ _ _ _ F) as [-> Hq]. repeat split; [now exists outs|]. apply Forall_app. split; [apply quiet_out|exact Hq].
Qed.

Lemma bstep_never_deferred c e c' o : waiting c = false -> bstep ForwardTrySend c e = Some (c', o) -> ~ In BDeferred o.
Proof.
  intros Hw H. destruct e as [ev|id|].
  - exact (quiet_not_deferred _ (proj1 (proj2 (proj2 (bstep_base _ _ _ _ Hw H))))).
  - unfold bstep in H. rewrite Hw in H. destruct (_ && _); injection H as _ <-; intros [].
  - unfold bstep in H. injection H as _ <-. intros Hin. apply in_map_iff in Hin. destruct Hin as (k & Hk & _).
    destruct (alive (base c) k); discriminate.
Qed.

Lemma brun_base evs : forall c c' o, waiting c = false -> brun ForwardTrySend c (map BBase evs) = Some (c', o) ->
  (exists outs, run (base c) evs = Some (base c', outs)) /\ waiting c' = false /\ quiet o /\
  busy c' = fold_left (fun l ev => filter (fun k => negb (ended_by ev k)) l) evs (busy c).
Proof.
  induction evs as [|e r IH]; intros c c' o Hw H; cbn [map run fold_left] in *.
  - injection H as <- <-. repeat split; eauto. constructor.
  - destruct (runs_cons (bstep ForwardTrySend) (brun ForwardTrySend) (fun _ _ _ => eq_refl) _ _ _ _ _ H) as (c1 & o1 & o2 & E1 & E2 & ->).
    destruct (bstep_base _ _ _ _ Hw E1) as ((outs1 & S1) & Hw1 & Hq1 & Hb1).
    destruct (IH _ _ _ Hw1 E2) as ((outs2 & S2) & Hw2 & Hq2 & Hb2).
    rewrite S1, S2. repeat split; eauto. apply Forall_app. now split. now rewrite Hb2, Hb1.
Qed.

Fixpoint project (evs : list bevent) : list event :=
  match evs with
  | [] => []
  | BBase e :: r => e :: project r
  | _ :: r => project r
  end.

(* with try_send the server task is never left waiting, and its tracker state is the tracker model run
   on the tracker events among those processed *)
Lemma bstep_projects c e c' o : waiting c = false -> bstep ForwardTrySend c e = Some (c', o) ->
  waiting c' = false /\ exists outs, run (base c) (project [e]) = Some (base c', outs).
Proof.
  intros Hw H. destruct e as [ev|id|]; cbn [project].
  - destruct (bstep_base _ _ _ _ Hw H) as ((outs & S) & Hw' & _). split; [exact Hw'|]. exists (outs ++ []). cbn [run]. now rewrite S.
  - unfold bstep in H. rewrite Hw in H. destruct (_ && _); injection H as <- _; split; auto; now exists [].
  - unfold bstep in H. injection H as <- _. split; [reflexivity|now exists []].
Qed.

Lemma project_app a b : project (a ++ b) = project a ++ project b.
Proof. induction a as [|[ev|id|] a IH]; cbn [app project]; [reflexivity| |exact IH|exact IH]. now rewrite IH. Qed.

Lemma brun_projects evs c c' o : waiting c = false -> brun ForwardTrySend c evs = Some (c', o) ->
  waiting c' = false /\ exists outs, run (base c) (project evs) = Some (base c', outs).
Proof.
  intros Hw H. refine (runs_invariant (bstep ForwardTrySend) (brun ForwardTrySend) (fun _ => eq_refl) (fun _ _ _ => eq_refl)
    (fun hist c1 => waiting c1 = false /\ exists outs, run (base c) (project hist) = Some (base c1, outs)) _ evs [] c c' o _ H).
  - intros hist c1 e c2 o1 (Hw1 & outs1 & R1) E. destruct (bstep_projects _ _ _ _ Hw1 E) as (Hw2 & outs2 & R2).
    split; [exact Hw2|]. exists (outs1 ++ outs2).
    now rewrite project_app, tracker_run_app, R1, R2.
  - split; [exact Hw|now exists []].
Qed.

Definition babs (c : bserver) : bsstate := {| core := tracker_abs (base c); parked := busy c |}.

Definition bprompt (m : nat) (c : bserver) : Prop := prompt m (base c) /\ waiting c = false.

Lemma bprompt_init m : bprompt m (binit m).
Proof. split; [apply prompt_init|reflexivity]. Qed.

Lemma prompt_alive_up m s k : prompt m s -> alive s k = running s && is_in k (served (tracker_abs s)).
Proof.
  intros Hp. rewrite (prompt_alive _ _ k Hp). destruct Hp as ((_ & Hstop) & _).
  destruct (running s); [reflexivity|]. cbn [tracker_abs served]. now rewrite (Hstop eq_refl).
Qed.

Lemma bview_babs m c out : prompt m (base c) ->
  bview c out = bsview (babs c)
    (flat_map (fun x => match x with BAnswered id => [(id, true)] | BSocketClosed id => [(id, false)] | _ => [] end) out).
Proof.
  intros Hp. unfold bview, bsview, open_sockets. do 3 f_equal.
  apply filter_ext. intros k. now rewrite (prompt_alive _ _ k Hp).
Qed.

Lemma filter_twice k (l : list N) : filter (fun j => negb (j =? k)) (filter (fun j => negb (j =? k)) l) = filter (fun j => negb (j =? k)) l.
Proof. induction l as [|x l IH]; [reflexivity|]. cbn. destruct (x =? k) eqn:E; cbn; [exact IH|]. rewrite E. cbn. now f_equal. Qed.

Lemma fold_nobody (evs : list event) (l : list N) : (forall ev k, In ev evs -> ended_by ev k = false) ->
  fold_left (fun l ev => filter (fun k => negb (ended_by ev k)) l) evs l = l.
Proof.
  revert l. induction evs as [|e r IH]; intros l Hno; cbn [fold_left]; [reflexivity|].
  rewrite (filter_ext _ (fun _ => true)) by (intros k; now rewrite (Hno e k (or_introl eq_refl))).
  rewrite filter_all. apply IH. intros ev k Hin. apply Hno. now right.
Qed.

Lemma step_brefines m c o c' out : bprompt m c -> brun ForwardTrySend c (bexpand o) = Some (c', out) ->
  bprompt m c' /\ babs c' = fst (bsstep m (babs c) o) /\ bview c' out = bsview (babs c') (snd (bsstep m (babs c) o)).
Proof.
  intros [Hp Hw] H.
  (* an operation made of tracker events only: the tracker refinement, and the busy sessions that ended are forgotten *)
  assert (Hbase : bexpand o = map BBase (expand o) ->
            bprompt m c' /\
            babs c' = {| core := sstep m (tracker_abs (base c)) o;
                         parked := fold_left (fun l ev => filter (fun k => negb (ended_by ev k)) l) (expand o) (busy c) |} /\
            bview c' out = bsview (babs c') []).
  { intros He. rewrite He in H. destruct (brun_base _ _ _ _ Hw H) as ((outs & R) & Hw' & Hq & Hb').
    destruct (step_refines _ _ _ _ _ Hp R) as [Hp' Ha].
    split; [now split|]. split; [unfold babs; now rewrite Ha, Hb'|]. now rewrite (bview_babs m c' out Hp'), (quiet_answers _ Hq). }
  (* ... and when none of these events ends a session, the busy sessions are as before *)
  assert (Hsame : bexpand o = map BBase (expand o) -> (forall ev k, In ev (expand o) -> ended_by ev k = false) ->
            bprompt m c' /\ babs c' = {| core := sstep m (tracker_abs (base c)) o; parked := busy c |} /\
            bview c' out = bsview (babs c') []).
  { intros He Hno. destruct (Hbase He) as (A & B & C). rewrite (fold_nobody _ _ Hno) in B. auto. }
  destruct o as [| |k|k|k v|k|k| | | |]; cbn [bsstep fst snd babs core parked].
  - (* Connect *) apply Hsame; [reflexivity|intros ev j [<-|[]]; reflexivity].
  - (* ConnectSilent *) apply Hsame; [reflexivity|intros ev j [<-|[]]; reflexivity].
  - (* ClientClose *)
    destruct Hbase as (A & B & C); [exact (bexpand_is_expand (ClientClose k))|].
    cbn [expand fold_left ended_by] in B. rewrite filter_twice in B. auto.
  - (* Garbage *)
    destruct Hbase as (A & B & C); [exact (bexpand_is_expand (Garbage k))|].
    cbn [expand fold_left ended_by] in B. rewrite filter_twice in B. auto.
  - (* Req *) apply Hsame; [reflexivity|intros ev j [<-|[]]; reflexivity].
  - (* Flood *) apply Hsame; [reflexivity|intros ev j []].
  - (* Park *)
    unfold bexpand in H. cbn [bexpand_with brun] in H. unfold bstep in H. rewrite Hw, (prompt_alive_up _ _ k Hp) in H.
    change (mem k (busy c)) with (is_in k (busy c)) in H. cbn [tracker_abs TrackerSpec.up].
    destruct (running (base c) && is_in k (served (tracker_abs (base c))) && negb (is_in k (busy c))); injection H as <- <-;
      (split; [now split|]; split; [reflexivity|now apply (bview_babs m _ [])]).
  - (* Release *)
    clear Hbase Hsame. unfold bexpand in H. cbn [bexpand_with brun] in H. unfold bstep in H. injection H as <- <-.
    split; [now split|]. split; [reflexivity|]. rewrite bview_babs with (m := m) by exact Hp. rewrite app_nil_r. f_equal.
    induction (rev (busy c)) as [|j l IH]; [reflexivity|]. cbn [map flat_map]. rewrite (prompt_alive _ _ j Hp), IH.
    unfold is_in. now destruct (existsb (N.eqb j) (served (tracker_abs (base c)))).
  - (* SetDecode *) apply Hsame; [reflexivity|intros ev j [<-|[]]; reflexivity].
  - (* Stop *) apply Hsame; [reflexivity|intros ev j [<-|[]]; reflexivity].
  - (* DropHandle *) apply Hsame; [reflexivity|intros ev j [<-|[]]; reflexivity].
Qed.

Lemma btrace_refines m ops : forall c t, bprompt m c -> btrace ForwardTrySend c ops = Some t -> t = bstrace m (babs c) ops.
Proof.
  induction ops as [|o r IH]; intros c t Hb H; cbn [btrace bstrace] in *; [now inversion H|].
  destruct (brun ForwardTrySend c (bexpand o)) as [[c1 out]|] eqn:E1; [|discriminate].
  destruct (btrace ForwardTrySend c1 r) as [t1|] eqn:E2; [|discriminate]. injection H as <-.
  destruct (step_brefines _ _ _ _ _ Hb E1) as (Hb1 & Ha & Hv). destruct (bsstep m (babs c) o) as [s1 a]. cbn [fst snd] in *.
  rewrite Hv, Ha. f_equal. rewrite <- Ha. exact (IH _ _ Hb1 E2).
Qed.

Lemma ended_session_record_removed c k c' o : waiting c = false -> running (base c) = true ->
  (brun_gen c (bexpand (ClientClose k)) = Some (c', o) \/ brun_gen c (bexpand (Garbage k)) = Some (c', o)) ->
  ~ In k (ids (sessions (trk (base c')))).
Proof.
  intros Hw Hr H. assert (H' : brun ForwardTrySend c (map BBase [PeerGone k; SessionEnded k]) = Some (c', o)).
  { unfold brun_gen, bexpand in H. rewrite forwarding_is_try_send, close_notice_is_never_lost in H. destruct H as [H|H]; exact H. }
  destruct (brun_base _ _ _ _ Hw H') as ((outs & R) & _). destruct (run_close (base c) k Hr) as (o' & R').
  rewrite R' in R. injection R as <- _. cbn [trk remove sessions]. rewrite ids_remove_id.
  intros Hin. apply filter_In in Hin. destruct Hin as [_ Hn]. rewrite N.eqb_refl in Hn. discriminate.
Qed.
