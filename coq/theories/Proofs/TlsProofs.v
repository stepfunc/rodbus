(* rodbus's own TLS logic (Model/Tls.v) against the Spec (Spec/TlsSpec.v): the certificate-mode tables select the
   verifier the Spec asks for; role extraction is the Spec's single role; admission (server, client, and `admission` with
   the true oracles) is the Spec's `expected`, which is inside what the property allows; and in the session-establishment
   system nothing of Modbus happens before the handshake is done, with the role of that handshake. *)
From Coq Require Import List String Bool.
From Rodbus Require Import Base.Outcome Spec.TlsSpec Gen.TlsVersions Gen.TlsModes Model.Tls.
Import ListNotations.

Section Modes.
  Variable cv nv sv : peer_cert -> bool.

  Lemma server_mode_correct m c :
    verifier_accepts cv nv sv (server_new m) c =
      match mode_meaning m with ModeAuthority => cv c | ModeSelfSigned => sv c end
    /\ snd (server_new m) = true.
  Proof. destruct m; cbn; split; try reflexivity; now rewrite andb_true_r. Qed.

  Lemma client_mode_correct m name_given c :
    verifier_accepts cv nv sv (client_use m name_given) c =
      match mode_meaning m with
      | ModeAuthority => cv c && (if name_given then nv c else true)
      | ModeSelfSigned => sv c
      end
    /\ snd (client_use m name_given) = true.
  Proof. destruct m, name_given; cbn; split; reflexivity. Qed.
End Modes.

Lemma roles_of_in r l : In r (roles_of l) <-> In (ModbusRole r) l.
Proof.
  induction l as [|x l IH]; [cbn; tauto|]. unfold roles_of in *. cbn [flat_map]. rewrite in_app_iff, IH.
  destruct x as [r'|t]; cbn; split.
  - intros [[->|[]]|H]; auto.
  - intros [H|H]; [inversion H; auto|auto].
  - intros [[]|H]; auto.
  - intros [H|H]; [discriminate|auto].
Qed.

(* the model's two decisions in the Spec's terms: the version negotiated, and the role taken from the certificate *)
Lemma negotiate_spec m p : negotiate (versions_of m) p =
  if offers13 p then Some TLS13 else if offers12 p && vle (min_meaning m) TLS12 then Some TLS12 else None.
Proof. unfold negotiate. destruct m, (offers13 p), (offers12 p); reflexivity. Qed.

Lemma single_role_extract c : single_role c = match extract_role (cert_exts c) with Ok r => Some r | _ => None end.
Proof.
  unfold extract_role, single_role. destruct (cert_exts c) as [l|]; [|reflexivity]. now destruct (roles_of l) as [|a [|b rest]].
Qed.

Lemma role_match {A} c (f : string -> A) (x : A) :
  match extract_role (cert_exts c) with Ok r => f r | _ => x end = match single_role c with Some r => f r | None => x end.
Proof. rewrite single_role_extract. now destruct (extract_role (cert_exts c)). Qed.

Section Admission.
  Variable cv nv sv : peer_cert -> bool.
  Hypothesis cv_ok : forall c, cv c = chains_to_authority c && within_validity c.
  Hypothesis nv_ok : forall c, nv c = name_matches c.
  Hypothesis sv_ok : forall c, sv c = identical_to_configured c && within_validity c.

  (* Both sides check the certificate and the version; the model negotiates first, the Spec validates first. *)
  Lemma server_admission min mode authz ng p :
    server_handshake cv nv sv min mode authz p = expected (endpoint_of ServerSide min mode authz ng) p.
  Proof.
    unfold server_handshake, expected.
    change (e_min (endpoint_of ServerSide min mode authz ng)) with (min_meaning min). rewrite <- negotiate_spec.
    destruct (server_mode_correct cv nv sv mode (presented p)) as [-> _].
    assert (Hv : match mode_meaning mode with ModeAuthority => cv (presented p) | ModeSelfSigned => sv (presented p) end
                 = cert_valid (endpoint_of ServerSide min mode authz ng) (presented p)).
    { unfold cert_valid. rewrite cv_ok, sv_ok. destruct mode; cbn; rewrite ?andb_true_r; apply andb_comm. }
    rewrite Hv. change (needs_role (endpoint_of ServerSide min mode authz ng)) with authz.
    destruct (cert_valid _ _); [|now destruct (negotiate _ p)]. destruct (negotiate _ p) as [v|]; [|reflexivity].
    destruct authz; [apply role_match|reflexivity].
  Qed.

  Lemma client_admission min mode authz ng p :
    client_handshake cv nv sv min mode ng p = expected (endpoint_of ClientSide min mode authz ng) p.
  Proof.
    unfold client_handshake, expected.
    change (e_min (endpoint_of ClientSide min mode authz ng)) with (min_meaning min). rewrite <- negotiate_spec.
    destruct (client_mode_correct cv nv sv mode ng (presented p)) as [-> _].
    assert (Hv : match mode_meaning mode with
                 | ModeAuthority => cv (presented p) && (if ng then nv (presented p) else true)
                 | ModeSelfSigned => sv (presented p)
                 end = cert_valid (endpoint_of ClientSide min mode authz ng) (presented p)).
    { unfold cert_valid. rewrite cv_ok, sv_ok, nv_ok. destruct mode, ng; cbn; rewrite ?andb_true_r; try apply andb_comm.
      now destruct (chains_to_authority _), (within_validity _). }
    rewrite Hv. change (needs_role (endpoint_of ClientSide min mode authz ng)) with false.
    now destruct (cert_valid _ _), (negotiate _ p).
  Qed.
End Admission.

Lemma admission s min mode authz ng p : handshake s min mode authz ng p = expected (endpoint_of s min mode authz ng) p.
Proof.
  destruct s; unfold handshake.
  - apply client_admission; intros; reflexivity.
  - apply server_admission; intros; reflexivity.
Qed.

Lemma expected_allowed e p : allowed e p (expected e p).
Proof.
  unfold expected. destruct (cert_valid e (presented p)) eqn:Ec; [|now left].
  (* the version chosen is offered and admissible; none is chosen only if none is *)
  assert (Hv : match (if offers13 p then Some TLS13 else if offers12 p && vle (e_min e) TLS12 then Some TLS12 else None) with
               | Some v => offered p v = true /\ vle (e_min e) v = true
               | None => forall v, offered p v = true -> vle (e_min e) v = false
               end).
  { destruct (offers13 p) eqn:E13; [split; [exact E13|now destruct (e_min e)]|].
    destruct (offers12 p) eqn:E12, (vle (e_min e) TLS12) eqn:Ev; cbn; auto; intros [] Ho; cbn in Ho; congruence. }
  destruct (if offers13 p then _ else _) as [v|]; [destruct Hv as [Ho Hm]|now right; left].
  destruct (needs_role e) eqn:En; [destruct (single_role (presented p)) as [r|] eqn:Es|]; cbn; rewrite ?En; auto.
  repeat split; auto. discriminate.
Qed.

Definition establishes (e : sevent) : bool := match e with HandshakeDone (Established _ _) => true | _ => false end.

(* a run by projections: what the first event logs, then the rest from where it leads *)
Lemma srun_cons ph e r :
  srun ph (e :: r) = (fst (srun (fst (sstep ph e)) r), snd (sstep ph e) ++ snd (srun (fst (sstep ph e)) r)).
Proof. cbn [srun]. destruct (sstep ph e) as [ph1 l1]. cbn [fst snd]. now destruct (srun ph1 r). Qed.

Lemma srun_app ph a b :
  srun ph (a ++ b) = (fst (srun (fst (srun ph a)) b), snd (srun ph a) ++ snd (srun (fst (srun ph a)) b)).
Proof.
  revert ph. induction a as [|e r IH]; intros ph; [cbn; now destruct (srun ph b)|].
  cbn [app]. rewrite !srun_cons, IH. cbn [fst snd]. now rewrite app_assoc.
Qed.

Lemma quiet_until_established evs : forallb (fun e => negb (establishes e)) evs = true ->
  forall ph, (ph = AwaitHandshake \/ ph = Finished) ->
  (fst (srun ph evs) = AwaitHandshake \/ fst (srun ph evs) = Finished) /\
  forallb (fun l => negb (is_modbus_activity l)) (snd (srun ph evs)) = true.
Proof.
  induction evs as [|e r IH]; intros Hq ph Hph; [now split|]. rewrite srun_cons. cbn [fst snd forallb] in *.
  apply andb_prop in Hq. destruct Hq as [He Hr].
  assert (H1 : (fst (sstep ph e) = AwaitHandshake \/ fst (sstep ph e) = Finished) /\
               forallb (fun l => negb (is_modbus_activity l)) (snd (sstep ph e)) = true)
    by (destruct Hph as [-> | ->]; destruct e as [n|[v role|]|]; try discriminate He; cbn; auto).
  destruct H1 as [H1 Hl]. destruct (IH Hr _ H1) as [IHp IHl]. split; [exact IHp|]. now rewrite forallb_app, Hl, IHl.
Qed.

Lemma sstep_auth ph e role n : In (AuthCall role n) (snd (sstep ph e)) -> ph = InSession (Some role).
Proof.
  (* only a session with a role logs AuthCall, and only for bytes from the peer *)
  destruct ph as [|[ro|]|]; destruct e as [k|[v ro'|]|]; cbn; try tauto;
    intros H; repeat (destruct H as [H|H]; try discriminate H); try contradiction.
  now injection H as -> _.
Qed.

Lemma sstep_into_session ph e role : fst (sstep ph e) = InSession (Some role) ->
  ph = InSession (Some role) \/ (ph = AwaitHandshake /\ exists v, e = HandshakeDone (Established v (Some role))).
Proof.
  destruct ph as [|ro|]; destruct e as [k|[v ro'|]|]; cbn; intros H; try discriminate; auto.
  inversion H; subst. right. split; [reflexivity|]. now exists v.
Qed.

Lemma sstep_await ph e : fst (sstep ph e) = AwaitHandshake -> ph = AwaitHandshake.
Proof. destruct ph as [|ro|]; destruct e as [k|[v ro'|]|]; cbn; intros H; try discriminate; reflexivity. Qed.

Lemma auth_role_is_handshake_role evs : forall ph role n,
  In (AuthCall role n) (snd (srun ph evs)) ->
  ph = InSession (Some role) \/
  (ph = AwaitHandshake /\ exists v, In (HandshakeDone (Established v (Some role))) evs).
Proof.
  induction evs as [|e r IH]; intros ph role n; [intros []|]. rewrite srun_cons. cbn [snd]. intros Hin.
  apply in_app_or in Hin. destruct Hin as [Hin|Hin]; [left; exact (sstep_auth _ _ _ _ Hin)|].
  destruct (IH _ _ _ Hin) as [H1|[H1 (v & Hv)]].
  - destruct (sstep_into_session _ _ _ H1) as [H|[H (v & ->)]]; [now left|]. right. split; [exact H|]. exists v. now left.
  - right. split; [exact (sstep_await _ _ H1)|]. exists v. now right.
Qed.
