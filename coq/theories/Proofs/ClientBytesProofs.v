(* C03: everything the client emits is a byte string (needs the 16-bit bound of the CRC model). *)
From Coq Require Import NArith List Lia.
From Rodbus Require Import Base.ClientTypes Model.Crc Spec.ClientCodecSpec Gen.Consts
  Proofs.CrcProofs Proofs.PackProofs Proofs.ClientCodecProofs.
Import ListNotations.
Local Open Scope N_scope.

Lemma crc_lt l : Forall is_u8 l -> crc l < 65536.
Proof. intros H. unfold crc. rewrite (crc_from_bits l H). now apply run_lt. Qed.

Lemma be_bytes v : v < 65536 -> Forall is_u8 (be v).
Proof. intros H. unfold be, is_u8. repeat constructor; lia. Qed.

Lemma pack_aux_bytes : forall fuel bits, Forall is_u8 (pack_aux fuel bits).
Proof.
  induction fuel as [|f IH]; intros bits; [constructor|].
  destruct (list_eq_dec Bool.bool_dec bits []) as [->|Hne]; [constructor|].
  rewrite pack_aux_step by assumption. constructor; [|apply IH].
  unfold is_u8. pose proof (byte_of_bits_lt (firstn 8 bits)) as H. rewrite firstn_length in H.
  eapply N.lt_le_trans; [exact H|]. change 256 with (2 ^ 8). apply N.pow_le_mono_r; lia.
Qed.

Lemma flat_map_be_bytes vs : Forall is_u16 vs -> Forall is_u8 (flat_map be vs).
Proof.
  induction 1 as [|v r Hv Hr IH]; [constructor|]. cbn [flat_map]. apply Forall_app. split; [now apply be_bytes|assumption].
Qed.

(* function code, then two 16-bit fields: the four reads and write-single-register *)
Lemma fields_bytes fc a b : fc < 256 -> a < 65536 -> b < 65536 -> Forall is_u8 (fc :: be a ++ be b).
Proof. intros Hf Ha Hb. constructor; [exact Hf|]. apply Forall_app. split; now apply be_bytes. Qed.

Lemma ref_pdu_bytes c : call_wf c -> within_limits c -> Forall is_u8 (ref_pdu c).
Proof.
  unfold within_limits. intros Hwf Hl.
  destruct c as [s n|s n|s n|s n|i v|i v|s vs|s vs]; cbn [call_wf within_limits_b ref_pdu] in *; unfold is_u16 in *.
  - now apply fields_bytes.
  - now apply fields_bytes.
  - now apply fields_bytes.
  - now apply fields_bytes.
  - constructor; [reflexivity|]. apply Forall_app. split; [now apply be_bytes|]. now destruct v; repeat constructor.
  - now apply fields_bytes.
  - apply andb_prop in Hl as [Hr Hn]. apply range_ok_true in Hr. fold (len vs) in *.
    constructor; [reflexivity|]. apply Forall_app. split; [now apply be_bytes|].
    apply Forall_app. split; [apply be_bytes; lia|]. apply Forall_app. split; [|apply pack_aux_bytes].
    constructor; [|constructor]. pose proof (bytes_for_bits_le (len vs) 255). unfold is_u8. lia.
  - destruct Hwf as [Hs Hvs]. apply andb_prop in Hl as [Hr Hn]. apply range_ok_true in Hr. fold (len vs) in *.
    constructor; [reflexivity|]. apply Forall_app. split; [now apply be_bytes|].
    apply Forall_app. split; [apply be_bytes; lia|]. apply Forall_app. split; [|now apply flat_map_be_bytes].
    constructor; [|constructor]. unfold is_u8. lia.
Qed.

Theorem ref_encode_bytes f tx uid c : call_wf c -> within_limits c -> tx < 65536 -> uid < 256 ->
  Forall is_u8 (ref_encode f tx uid c).
Proof.
  intros Hwf Hl Htx Hu. pose proof (ref_pdu_bytes c Hwf Hl) as Hp. pose proof (ref_pdu_length c Hl) as Hlen. unfold max_adu_length in Hlen.
  destruct f; unfold ref_encode, ref_encode_tcp, ref_encode_rtu.
  - apply Forall_app. split; [now apply be_bytes|]. apply Forall_app. split; [repeat constructor; unfold is_u8; lia|].
    apply Forall_app. split; [apply be_bytes; unfold len; lia|].
    constructor; assumption.
  - assert (Hb : Forall is_u8 (uid :: ref_pdu c)) by (constructor; assumption).
    cbv zeta. apply Forall_app. split; [assumption|]. pose proof (crc_lt _ Hb). repeat constructor; unfold is_u8; lia.
Qed.

