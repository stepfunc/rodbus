(* C06: CRC-16/MODBUS algebra. (1) One register step is linear over xor, hence so are the byte update and
   the bit-serial run (`run_lin`, the form every later proof uses). (2) A register fed its own bits shifts
   them out, so by linearity the syndrome of the low n bits of x is x advanced n steps, and a step has
   trivial kernel on 16-bit states: no non-zero 16-bit window has syndrome zero. (3) A corrupted valid
   frame verifies iff its error pattern has zero syndrome. The one finite fact about the polynomial that is
   evaluated is the orbit of 1 over 2100 steps. The CRC itself is defined in Model/Crc.v. *)
From Coq Require Import NArith List Lia Bool Arith.
From Rodbus Require Import Model.Crc Spec.Framing.
Import ListNotations.
Local Open Scope N_scope.

(* 1. linearity *)
Lemma step1_lin a b : step1 (N.lxor a b) = N.lxor (step1 a) (step1 b).
Proof.
  unfold step1. rewrite N.lxor_spec, N.shiftr_lxor.
  destruct (N.testbit a 0), (N.testbit b 0); cbn [xorb].
  - rewrite N.lxor_assoc, (N.lxor_comm poly), <- !N.lxor_assoc.
    rewrite (N.lxor_assoc _ poly poly), N.lxor_nilpotent, N.lxor_0_r. reflexivity.
  - rewrite !N.lxor_assoc. f_equal. apply N.lxor_comm.
  - rewrite N.lxor_assoc. reflexivity.
  - reflexivity.
Qed.

(* 2. 16-bit states, the bit-serial view *)
Definition W := 65536.

Lemma lxor_lt_pow2 n a b : a < 2 ^ n -> b < 2 ^ n -> N.lxor a b < 2 ^ n.
Proof.
  intros Ha Hb. apply N.div_small_iff; [apply N.pow_nonzero; discriminate|].
  now rewrite <- N.shiftr_div_pow2, N.shiftr_lxor, !N.shiftr_div_pow2, !N.div_small.
Qed.
Lemma lxor_lt a b : a < W -> b < W -> N.lxor a b < W.
Proof. exact (lxor_lt_pow2 16 a b). Qed.
Lemma step1_lt s : s < W -> step1 s < W.
Proof.
  intros Hs. assert (H : N.shiftr s 1 < W).
  { rewrite N.shiftr_div_pow2. apply N.div_lt_upper_bound; unfold W in *; cbn; lia. }
  unfold step1. destruct (N.testbit s 0); [apply lxor_lt; [exact H|reflexivity]|exact H].
Qed.
(* s / 2 < 2^15 <= poly, so the xor with poly cannot cancel *)
Lemma step1_zero s : s < W -> step1 s = 0 -> s = 0.
Proof.
  unfold step1, W. rewrite N.bit0_odd, <- N.div2_spec. intros Hs E.
  pose proof (N.div2_odd s) as D. destruct (N.odd s); cbn [N.b2n] in D.
  - apply N.lxor_eq in E. unfold poly in E. lia.
  - lia.
Qed.
(* a linear map with trivial kernel *)
Lemma step1_inj a b : a < W -> b < W -> step1 a = step1 b -> a = b.
Proof.
  intros Ha Hb E. apply N.lxor_eq, step1_zero; [now apply lxor_lt|].
  rewrite step1_lin, E. apply N.lxor_nilpotent.
Qed.

Fixpoint pw (n : nat) (x : N) : N := match n with O => x | S n => pw n (step1 x) end.
Lemma pw_lt n : forall x, x < W -> pw n x < W.
Proof. induction n; intros x Hx; cbn [pw]; [assumption|]. apply IHn, step1_lt, Hx. Qed.
Lemma pw_zero n : forall x, x < W -> pw n x = 0 -> x = 0.
Proof. induction n; intros x Hx E; cbn [pw] in E; [assumption|]. apply step1_zero; [assumption|]. apply IHn; [apply step1_lt, Hx|assumption]. Qed.
Lemma pw_0 n : pw n 0 = 0. Proof. induction n; [reflexivity|exact IHn]. Qed.
Lemma pw_lin n : forall a b, pw n (N.lxor a b) = N.lxor (pw n a) (pw n b).
Proof. induction n; intros a b; cbn [pw]; [reflexivity|]. rewrite step1_lin. apply IHn. Qed.

(* Model/Crc.v's byte update is eight of these steps *)
Lemma iter_pw n : forall x, iter n step1 x = pw n x.
Proof. induction n; intros x; [reflexivity|]. cbn [iter pw]. apply IHn. Qed.
Lemma upd_lin s1 s2 b1 b2 : upd (N.lxor s1 s2) (N.lxor b1 b2) = N.lxor (upd s1 b1) (upd s2 b2).
Proof.
  unfold upd. rewrite !iter_pw, <- pw_lin. f_equal.
  rewrite !N.lxor_assoc. f_equal. rewrite <- !N.lxor_assoc. f_equal. apply N.lxor_comm.
Qed.

Definition b2n (b : bool) : N := if b then 1 else 0.
Definition bstep (s : N) (b : bool) : N := step1 (N.lxor s (b2n b)).
Definition run (s : N) (l : list bool) : N := fold_left bstep l s.
Definition syn (l : list bool) : N := run 0 l.

Lemma run_app s l1 l2 : run s (l1 ++ l2) = run (run s l1) l2. Proof. apply fold_left_app. Qed.
Lemma run_zeros n : forall s, run s (repeat false n) = pw n s.
Proof. induction n; intros s; cbn; [reflexivity|]. unfold bstep at 2. cbn [b2n]. rewrite N.lxor_0_r. apply IHn. Qed.
Lemma bstep_lt s b : s < W -> bstep s b < W.
Proof. intros Hs. apply step1_lt, lxor_lt; [exact Hs|now destruct b]. Qed.
Lemma run_lt l : forall s, s < W -> run s l < W.
Proof. induction l as [|b l IH]; intros s Hs; cbn [run fold_left]; [assumption|]. apply IH, bstep_lt, Hs. Qed.

Fixpoint xorl (a b : list bool) : list bool :=
  match a, b with x :: a, y :: b => xorb x y :: xorl a b | _, _ => [] end.
Lemma b2n_xor x y : b2n (xorb x y) = N.lxor (b2n x) (b2n y). Proof. destruct x, y; reflexivity. Qed.
Lemma run_lin : forall a b s t, length a = length b ->
  run (N.lxor s t) (xorl a b) = N.lxor (run s a) (run t b).
Proof.
  induction a as [|x a IH]; intros [|y b] s t Hl; try discriminate; cbn; [reflexivity|].
  injection Hl as Hl. change (run (bstep (N.lxor s t) (xorb x y)) (xorl a b) = N.lxor (run (bstep s x) a) (run (bstep t y) b)).
  rewrite <- IH by assumption. f_equal. unfold bstep. rewrite <- step1_lin. f_equal.
  rewrite b2n_xor, !N.lxor_assoc. f_equal. rewrite <- !N.lxor_assoc. f_equal. apply N.lxor_comm.
Qed.

(* reading bits commutes with xor, at any list of positions (bits8, bits16) *)
Lemma testbits_lxor a b l : map (N.testbit (N.lxor a b)) l = xorl (map (N.testbit a) l) (map (N.testbit b) l).
Proof. induction l as [|i l IH]; cbn [map xorl]; [reflexivity|]. now rewrite N.lxor_spec, IH. Qed.
Lemma bits16_lxor a b : bits16 (N.lxor a b) = xorl (bits16 a) (bits16 b).
Proof. apply testbits_lxor. Qed.

Lemma xorl_false_l l : xorl (repeat false (length l)) l = l.
Proof. induction l as [|a l IH]; cbn [length repeat xorl]; [reflexivity|]. rewrite xorb_false_l, IH. reflexivity. Qed.

(* a register fed its own bits, least significant first, shifts them out *)
Lemma bstep_own t : bstep t (N.testbit t 0) = N.shiftr t 1.
Proof.
  unfold bstep, step1. rewrite N.lxor_spec, N.shiftr_lxor.
  destruct (N.testbit t 0); cbn [b2n]; [change (N.testbit 1 0) with true|change (N.testbit 0 0) with false]; cbn [xorb];
  [change (N.shiftr 1 1) with 0|change (N.shiftr 0 1) with 0]; apply N.lxor_0_r.
Qed.
Lemma run_own_bits n : forall s k,
  run (N.shiftr s (N.of_nat k)) (map (N.testbit s) (map N.of_nat (seq k n))) = N.shiftr s (N.of_nat (k + n)).
Proof.
  induction n as [|n IH]; intros s k; cbn [seq map run fold_left].
  - now rewrite Nat.add_0_r.
  - replace (N.testbit s (N.of_nat k)) with (N.testbit (N.shiftr s (N.of_nat k)) 0) by apply N.shiftr_spec'.
    rewrite bstep_own, N.shiftr_shiftr, N.add_1_r, <- Nat2N.inj_succ, <- Nat.add_succ_comm. apply IH.
Qed.
(* hence, by linearity, the syndrome of the n low bits of x is x advanced n steps: the register x fed zeros
   and the register 0 fed the bits of x sum to the register x fed its own bits, which is empty *)
Lemma syn_low_bits n x : x < 2 ^ N.of_nat n -> syn (map (N.testbit x) (map N.of_nat (seq 0 n))) = pw n x.
Proof.
  intros Hx. pose proof (run_own_bits n x 0) as R. set (l := map _ _) in *.
  rewrite N.shiftr_0_r, N.shiftr_div_pow2, N.div_small in R by exact Hx.
  assert (Hl : length l = n) by (unfold l; now rewrite !map_length, seq_length).
  pose proof (run_lin (repeat false (length l)) l x 0 (repeat_length _ _)) as H.
  rewrite xorl_false_l, N.lxor_0_r, run_zeros, Hl, R in H.
  symmetry. apply N.lxor_eq. symmetry. exact H.
Qed.

(* every non-zero 16-bit window has non-zero syndrome *)
Lemma window_nonzero : forall x, x < W -> x <> 0 -> syn (bits16 x) <> 0.
Proof. intros x Hx Hn E. apply Hn, (pw_zero 16 x Hx). rewrite <- E. symmetry. exact (syn_low_bits 16 x Hx). Qed.

(* the orbit of 1 does not return to 1 within 2100 steps: two-bit errors up to 2100 bits apart *)
Fixpoint orbit_ok (n : nat) (x : N) : bool := match n with O => true | S n => negb (step1 x =? 1) && orbit_ok n (step1 x) end.
Lemma orbit_ok_spec n : forall x, orbit_ok n x = true -> forall d, (1 <= d <= n)%nat -> pw d x <> 1.
Proof.
  induction n as [|n IH]; intros x H d Hd; [lia|]. cbn in H. apply andb_prop in H as [H1 H2].
  destruct d as [|d]; [lia|]. cbn [pw]. destruct d as [|d].
  - cbn. apply negb_true_iff, N.eqb_neq in H1. assumption.
  - apply (IH (step1 x) H2 (S d)). lia.
Qed.
Lemma orbit_1 : forall d, (1 <= d <= 2100)%nat -> pw d 1 <> 1.
Proof. apply orbit_ok_spec. vm_compute. reflexivity. Qed.

(* burst: everything outside a 16-bit window is untouched, the window is not all-zero *)
Theorem burst_detected a x z : x < W -> x <> 0 -> syn (zeros a ++ bits16 x ++ zeros z) <> 0.
Proof.
  intros Hx Hn. unfold syn. rewrite !run_app, !run_zeros, pw_0. intros E.
  apply pw_zero in E; [|apply run_lt; reflexivity]. exact (window_nonzero x Hx Hn E).
Qed.
(* two flipped bits d apart *)
Theorem double_detected a d z : (1 <= d <= 2100)%nat -> syn (zeros a ++ [true] ++ zeros (d-1) ++ [true] ++ zeros z) <> 0.
Proof.
  intros Hd. unfold syn. rewrite !run_app, !run_zeros, pw_0. cbn [run fold_left].
  unfold bstep at 2. cbn [b2n]. rewrite N.lxor_0_l.
  change (pw (d-1) (step1 1)) with (pw (S (d-1)) 1). replace (S (d-1)) with d by lia.
  assert (Hlt : pw d 1 < W) by (apply pw_lt; reflexivity).
  intros E. apply pw_zero in E; [|apply bstep_lt, Hlt].
  apply step1_zero in E; [|now apply lxor_lt].
  apply N.lxor_eq in E. exact (orbit_1 d Hd E).
Qed.

(* a frame, bit-serially: body bits then the 16 CRC bits (LSB first = wire order); valid iff the
   register after the body equals the transmitted CRC *)
Definition accepts (body crcbits : list bool) : Prop := exists c, c < W /\ crcbits = bits16 c /\ run 65535 body = c.

Lemma syn_bits16_inj c : c < W -> syn (bits16 c) = 0 -> c = 0.
Proof. intros Hc E. destruct (N.eq_dec c 0) as [|Hn]; [assumption|]. exfalso. exact (window_nonzero c Hc Hn E). Qed.


(* 3. frames *)
(* byte-wise update = eight bit-serial steps (LSB first = UART wire order) *)
Lemma upd_bits s b : b < 256 -> upd s b = run s (bits8 b).
Proof.
  intros Hb. unfold upd. rewrite iter_pw, pw_lin, <- (syn_low_bits 8 b Hb), <- run_zeros. fold (bits8 b). unfold syn.
  rewrite <- run_lin by reflexivity. change 8%nat with (length (bits8 b)). now rewrite xorl_false_l, N.lxor_0_r.
Qed.
Lemma crc_from_bits l : Forall (fun b => b < 256) l -> forall s, crc_from s l = run s (bits_of l).
Proof.
  induction 1 as [|b l Hb Hl IH]; intros s; [reflexivity|]. cbn [crc_from fold_left bits_of flat_map].
  rewrite run_app, <- upd_bits by assumption. apply IH.
Qed.


Lemma xorl_cancel a : forall b c, length a = length b -> length a = length c -> xorl a b = xorl a c -> b = c.
Proof.
  induction a as [|x a IH]; intros [|y b] [|z c] Hb Hc H; try discriminate; [reflexivity|].
  cbn in H. injection H as Hx H. f_equal; [destruct x, y, z; try reflexivity; discriminate|]. apply IH; auto.
Qed.
Lemma xorl_self l : xorl l l = repeat false (length l).
Proof. induction l as [|y l IH]; cbn [xorl length repeat]; [reflexivity|]. now rewrite xorb_nilpotent, IH. Qed.
Lemma bits16_inj a b : a < W -> b < W -> bits16 a = bits16 b -> a = b.
Proof.
  intros Ha Hb E. apply N.lxor_eq. destruct (N.eq_dec (N.lxor a b) 0) as [|Hn]; [assumption|]. exfalso.
  apply (window_nonzero _ (lxor_lt _ _ Ha Hb) Hn). rewrite bits16_lxor, E, xorl_self. unfold syn. rewrite run_zeros. apply pw_0.
Qed.

(* feeding a register its own 16 bits clears it *)
Lemma absorb s : s < W -> run s (bits16 s) = 0.
Proof.
  intros Hs. pose proof (run_own_bits 16 s 0) as H. rewrite N.shiftr_0_r in H.
  unfold bits16. rewrite H, N.shiftr_div_pow2. apply N.div_small, Hs.
Qed.
Lemma clears_iff s e : s < W -> e < W -> (run s (bits16 e) = 0 <-> e = s).
Proof.
  intros Hs He. split; [|intros ->; now apply absorb].
  intros H. replace (bits16 e) with (xorl (bits16 s) (bits16 (N.lxor s e))) in H
    by (rewrite <- bits16_lxor; f_equal; now rewrite <- N.lxor_assoc, N.lxor_nilpotent, N.lxor_0_l).
  replace s with (N.lxor s 0) in H at 1 by apply N.lxor_0_r.
  rewrite run_lin, absorb, N.lxor_0_l in H by (reflexivity || assumption).
  destruct (N.eq_dec (N.lxor s e) 0) as [Hz|Hn]; [symmetry; now apply N.lxor_eq|].
  exfalso. exact (window_nonzero _ (lxor_lt _ _ Hs He) Hn H).
Qed.

(* C06_detect at the bit level *)
Theorem accept_iff_syndrome body eb c e :
  length eb = length body -> e < W -> c = run 65535 body ->
  (N.lxor c e = run 65535 (xorl body eb)  <->  syn (eb ++ bits16 e) = 0).
Proof.
  intros Hl He ->. set (C := run 65535 body).
  assert (HC : C < W) by (apply run_lt; reflexivity).
  replace (run 65535 (xorl body eb)) with (N.lxor C (syn eb)).
  2:{ unfold C, syn. rewrite <- run_lin by (now symmetry). now rewrite N.lxor_0_r. }
  unfold syn at 2. rewrite run_app. fold (syn eb).
  assert (Hs : syn eb < W) by (apply run_lt; reflexivity).
  rewrite (clears_iff _ _ Hs He). split.
  - intros H. apply (f_equal (N.lxor C)) in H. rewrite <- !N.lxor_assoc, N.lxor_nilpotent, !N.lxor_0_l in H. exact H.
  - intros ->. reflexivity.
Qed.

(* corollaries: the two error classes are never accepted (frame of any length for bursts; ≤ 2100 bits apart for pairs) *)
Corollary burst_never_accepted body c a x z eb e :
  c = run 65535 body -> x < W -> x <> 0 -> e < W -> length eb = length body ->
  eb ++ bits16 e = zeros a ++ bits16 x ++ zeros z -> N.lxor c e <> run 65535 (xorl body eb).
Proof. intros Hc Hx Hn He Hl Hpat H. apply (accept_iff_syndrome body eb c e Hl He Hc) in H. rewrite Hpat in H. exact (burst_detected a x z Hx Hn H). Qed.
Corollary double_never_accepted body c a d z eb e :
  c = run 65535 body -> (1 <= d <= 2100)%nat -> e < W -> length eb = length body ->
  eb ++ bits16 e = zeros a ++ [true] ++ zeros (d - 1) ++ [true] ++ zeros z -> N.lxor c e <> run 65535 (xorl body eb).
Proof. intros Hc Hd He Hl Hpat H. apply (accept_iff_syndrome body eb c e Hl He Hc) in H. rewrite Hpat in H. exact (double_detected a d z Hd H). Qed.
