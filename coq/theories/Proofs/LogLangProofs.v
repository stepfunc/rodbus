(* The logging language (Model/LogLang.v): what a program lets be observed is what its level-independent steps do;
   log blocks and level changes drop out (observable_steps_only), which gives the three C20 theorems. *)
From Coq Require Import List.
From Rodbus Require Import Model.LogLang.
Import ListNotations.

Section P.
Variables (Level St Out Log : Type).
Notation stmt := (stmt Level St Out Log).
Notation run := (run Level St Out Log).
Notation observable := (observable Level St Out Log).
Notation erase := (erase Level St Out Log).
Notation steps_only := (steps_only Level St Out Log).

Lemma observable_steps_only (prog : list stmt) : forall lv lv' s,
  observable (run lv s prog) = observable (run lv' s (steps_only prog)).
Proof.
  induction prog as [|c rest IH]; intros lv lv' s; [reflexivity|].
  destruct c as [f|p msg|l]; cbn [LogLang.run LogLang.steps_only].
  - destruct (f s) as [s' o]. specialize (IH lv lv' s'). unfold LogLang.observable in *. cbn.
    inversion IH as [[H1 H2]]. rewrite H1, H2. reflexivity.
  - rewrite <- (IH lv lv' s). reflexivity.
  - apply IH.
Qed.

Lemma steps_only_erase (prog : list stmt) : steps_only (erase prog) = steps_only prog.
Proof. induction prog as [|c rest IH]; [reflexivity|]. destruct c; cbn; rewrite ?IH; reflexivity. Qed.

Lemma erase_insert (p1 p2 : list stmt) l : erase (p1 ++ SetLevel _ _ _ _ l :: p2) = erase (p1 ++ p2).
Proof. induction p1 as [|c r IH]; [reflexivity|]. destruct c; cbn; rewrite ?IH; reflexivity. Qed.
End P.
Arguments observable_steps_only {Level St Out Log}.
Arguments steps_only_erase {Level St Out Log}.
Arguments erase_insert {Level St Out Log}.
