(* Structural ties for the authorization path outside the session task: the C-ABI adapter
   (ffi/rodbus-ffi/src/server.rs AuthorizationHandlerWrapper, table regenerated in Gen/FfiTables.v) and the
   TLS server's choice of the session's AuthorizationType (tcp/tls/server.rs, Gen/TlsAuthz.v). *)
From Coq Require Import List String.
From Rodbus Require Import Gen.FfiTables.
Import ListNotations.
Local Open Scope string_scope.

Definition forwards_faithfully (w : authz_wrapper) : Prop :=
  aw_callback w = aw_method w /\ aw_role w = RoleOfThisCall /\ aw_unit w = "unit_id.value" /\ aw_result_into w = true /\ aw_unset_denies w = true.

(* every trait method of the adapter calls the C callback of ITS OWN name, with the unit id and the role
   string of this very call (nothing is remembered in the adapter: its only field is the callback struct);
   an unset callback denies *)
Lemma ffi_wrapper_forwards :
  Forall forwards_faithfully authz_wrappers /\
  map aw_method authz_wrappers =
    ["read_coils"; "read_discrete_inputs"; "read_holding_registers"; "read_input_registers";
     "write_single_coil"; "write_single_register"; "write_multiple_coils"; "write_multiple_registers"] /\
  authz_wrapper_fields = ["inner"].
Proof. unfold forwards_faithfully. repeat split; repeat constructor; reflexivity. Qed.

