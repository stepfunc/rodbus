(* Composition on the RTU client side: RTU reader refinement (C06_chunking, role Responses) +
   reply decoding (C04) + the client task's frame handling (C12 / C10) = the RTU client as a whole
   equals the reference of Spec/SystemClientRtuSpec.v. The layers are used through their theorems
   (Proofs/C06Proofs.v, Proofs/ClientReplyProofs.v, Proofs/ClientSystemProofs.v), not re-proved. *)
From Coq Require Import NArith List.
From Rodbus Require Import Gen.RtuLengths.
From Rodbus Require Base.Frame Model.Reader Spec.Framing Spec.SystemClientSpec Spec.SystemClientRtuSpec Model.SystemClient Model.SystemClientRtu Proofs.C06Proofs Proofs.ClientSystemProofs.
Import ListNotations.
Module F := Rodbus.Base.Frame.
Module SS := Rodbus.Spec.SystemClientSpec.
Module SR := Rodbus.Spec.SystemClientRtuSpec.
Import SystemClient SystemClientRtu ClientSystemProofs.
Local Open Scope N_scope.

Lemma rref_tx_none : forall fuel r s fi, Forall (fun f => F.f_tx f = None) (fst (Framing.rref fuel r s fi)).
Proof.
  induction fuel as [|fuel IH]; intros r s fi; [constructor|]. cbn [Framing.rref].
  destruct s as [|addr [|fc rest]]; try constructor.
  assert (Hb : forall plen t, Forall (fun f => F.f_tx f = None)
                 (fst (Framing.ref_rtu_body (fun s' => Framing.rref fuel r s' fi) fi addr plen t))).
  { intros plen t. unfold Framing.ref_rtu_body. destruct (Nat.ltb 253 plen); [constructor|].
    destruct (Nat.ltb (length t) (plen + 2)); [constructor|]. destruct (N.eqb _ _); [|constructor].
    specialize (IH r (skipn (plen + 2) t) fi). destruct (Framing.rref fuel r _ fi) as [fs e]. cbn [fst] in *.
    constructor; [reflexivity|exact IH]. }
  destruct (Framing.length_rule r fc); [apply Hb| |constructor].
  destruct (Nat.ltb _ _); [constructor|apply Hb].
Qed.

Definition first_rtu_frame (s : list N) (fi : F.fin) : option F.frame := hd_error (fst (Framing.ref_rtu_frames Framing.Responses s fi)).

Lemma ref_client_result_rtu_decided mr s fi :
  SR.ref_client_result_rtu mr s fi = decided mr (first_rtu_frame s fi) (snd (Framing.ref_rtu_frames Framing.Responses s fi)).
Proof.
  unfold SR.ref_client_result_rtu, first_rtu_frame. destruct (Framing.ref_rtu_frames Framing.Responses s fi) as [[|f fs] e]; reflexivity.
Qed.

(* without transaction ids the first frame is the matching one *)
Lemma first_rtu_frame_find t s fi : find (SS.tx_is t) (fst (Framing.ref_rtu_frames Framing.Responses s fi)) = first_rtu_frame s fi.
Proof.
  unfold first_rtu_frame, Framing.ref_rtu_frames. pose proof (rref_tx_none (S (length s)) Framing.Responses s fi) as H.
  destruct H as [|f fs Hf _]; [reflexivity|]. cbn [find hd_error]. unfold SS.tx_is. now rewrite Hf.
Qed.

Lemma client_system_rtu_frames cfg reqs st s chunks fi : Framing.bytes s -> concat chunks = s -> Forall (fun c => c <> []) chunks ->
  client_system_rtu cfg reqs st chunks fi =
  task_on cfg reqs st (fst (Framing.ref_rtu_frames Framing.Responses s fi)) (snd (Framing.ref_rtu_frames Framing.Responses s fi)).
Proof.
  intros Hb Hc Hne. unfold client_system_rtu, task_on.
  change Reader.KRtuResponse with (C06Proofs.kind_of Response).
  rewrite (C06Proofs.rtu_chunking Response s chunks fi Hb Hc Hne). cbv zeta. unfold ReaderGeneric.liftr. cbn [fst snd RtuProofs.role_of].
  now rewrite ReaderGeneric.frames_of_map.
Qed.

(* a stream that begins with a delimited frame: its CRC bytes decide between its PDU and BadFrame,
   whatever the address byte is and whatever follows *)
Lemma rtu_first_frame_verdict mr addr pdu lo hi rest fi :
  Framing.delimited Framing.Responses pdu -> (length pdu <= 253)%nat ->
  SR.ref_client_result_rtu mr (addr :: pdu ++ [lo; hi] ++ rest) fi =
  if lo + 256 * hi =? Crc.crc (addr :: pdu) then SS.ref_reply_verdict mr pdu else SS.VBadFrame.
Proof.
  intros Hd Hl. unfold SR.ref_client_result_rtu, Framing.ref_rtu_frames. rewrite C06Proofs.rref_one_frame by assumption.
  destruct (_ =? _); [|reflexivity]. now destruct (Framing.rref _ _ _ _).
Qed.

