(* Composition for a sequence of requests on one connection: the "connection goes on" lemmas of the
   reader (it represents the leftover bytes: theorems C05_continue_fresh, _run, _step) + the single-exchange composition
   of Proofs/ClientSystemProofs.v. *)
From Coq Require Import NArith List.
From Rodbus Require Base.Frame Base.ClientTypes Model.Reader Model.ClientTask Spec.Framing Spec.SystemClientSpec
  Spec.SystemClientSessionSpec Model.SystemClient Model.SystemClientSession Proofs.ReaderGeneric
  Proofs.C05Proofs Proofs.ClientSystemProofs.
Import ListNotations.
Module F := Rodbus.Base.Frame.
Module CT := Rodbus.Base.ClientTypes.
Module T := Rodbus.Model.ClientTask.
Module SS := Rodbus.Spec.SystemClientSpec.
Module XS := Rodbus.Spec.SystemClientSessionSpec.
Import SystemClient SystemClientSession ClientSystemProofs.
Local Open Scope N_scope.

Section Sys.
Variable cfg : T.config.
Variable reqs : content.

Lemma exchange_from_task rd st chunks fi :
  exchange_from cfg reqs rd st chunks fi =
  let '(rd1, (items, e)) := Reader.run_reader_st (Reader.run_fuel rd chunks) rd chunks fi in
  (rd1, e, task_on cfg reqs st (Reader.frames_of items) e).
Proof.
  unfold exchange_from, task_on. destruct (Reader.run_reader_st _ rd chunks fi) as [rd1 [items e]].
  destruct (deliver cfg reqs st (Reader.frames_of items)) as [[s1 o1] d1]. destruct (T.run cfg s1 (end_events e)). reflexivity.
Qed.

(* ONE exchange from a reader that holds the leftover `left` of the connection so far *)
Theorem exchange_from_ref rd left st r t d chunks fi :
  C05Proofs.tcp_represents rd left ->
  T.ph st = T.PInFlight r t d -> T.partial st = None -> CT.request_wf (reqs (T.rq_id r)) ->
  Forall (fun c => c <> []) chunks ->
  let '(rd1, e, res) := exchange_from cfg reqs rd st chunks fi in
  verdict_for (T.rq_id r) res = SS.ref_client_result (reqs (T.rq_id r)) t (left ++ concat chunks) fi /\
  e = snd (Framing.ref_frames (left ++ concat chunks) fi) /\
  (fi = F.FinPending -> e = F.EndPending -> C05Proofs.tcp_represents rd1 (Framing.mbap_tail (left ++ concat chunks))).
Proof.
  intros Hrep Hph Hp Hwf Hne. rewrite exchange_from_task.
  destruct (C05Proofs.tcp_run_represents rd left chunks fi Hrep) as [_ Hrun].
  destruct (ReaderGeneric.sbytes_nonempty chunks Hne) as [Hs Hf]. rewrite Hs, Hf in Hrun.
  destruct (Reader.run_reader_st (Reader.run_fuel rd chunks) rd chunks fi) as [rd1 [items e]] eqn:Est.
  cbn [snd] in Hrun. unfold ReaderGeneric.liftr in Hrun. injection Hrun as Hi He.
  rewrite Hi, ReaderGeneric.frames_of_map. split; [|split].
  - rewrite He, ref_client_result_decided. exact (proj1 (task_on_ref cfg reqs st r t d Hph Hp Hwf _ _)).
  - exact He.
  - intros Hfi Hend. subst fi e. rewrite Hend in Est.
    destruct (C05Proofs.tcp_represents_step rd left chunks rd1 _ Hrep Est) as (R & _ & _). rewrite Hs in R. exact R.
Qed.

Definition exchange_ok (x : T.state * nat * Reader.net) : Prop :=
  let '(st, id, chunks) := x in
  (exists r t d, T.ph st = T.PInFlight r t d /\ T.rq_id r = id) /\ T.partial st = None /\
  CT.request_wf (reqs id) /\ Forall (fun c => c <> []) chunks.

Definition tx_of_state (st : T.state) : N := match T.ph st with T.PInFlight _ t _ => t | _ => 0 end.
Definition spec_exchange (x : T.state * nat * Reader.net) : XS.exchange :=
  let '(st, id, chunks) := x in (reqs id, tx_of_state st, concat chunks).

Theorem session_from_ref : forall xs rd left, C05Proofs.tcp_represents rd left -> Forall exchange_ok xs ->
  session_from cfg reqs rd xs = XS.ref_session left (map spec_exchange xs).
Proof.
  induction xs as [|[[st id] chunks] xs IH]; intros rd left Hrep Hok; [reflexivity|].
  inversion Hok as [|x xs' Hx Hrest]; subst. destruct Hx as ((r & t & d & Hph & Hid) & Hp & Hwf & Hne).
  cbn [session_from map spec_exchange XS.ref_session]. unfold tx_of_state. rewrite Hph. subst id.
  pose proof (exchange_from_ref rd left st r t d chunks F.FinPending Hrep Hph Hp Hwf Hne) as E.
  destruct (exchange_from cfg reqs rd st chunks F.FinPending) as [[rd1 e] res]. destruct E as (Hv & He & Hnext).
  rewrite Hv, <- He. f_equal. destruct e; try reflexivity. apply IH; [apply Hnext; reflexivity|exact Hrest].
Qed.

End Sys.

(* several connections: every connection is decided by its own bytes alone *)
Section Conns.
Variable cfg : T.config.
Variable reqs : content.

Definition xchg_ok (x : xchg) : Prop :=
  let '(st, id, chunks, fi) := x in
  (exists r t d, T.ph st = T.PInFlight r t d /\ T.rq_id r = id) /\ T.partial st = None /\
  CT.request_wf (reqs id) /\ Forall (fun c => c <> []) chunks.
Definition spec_xchg (x : xchg) : XS.exchange_fi :=
  let '(st, id, chunks, fi) := x in (reqs id, tx_of_state st, concat chunks, fi).

Lemma session_fi_ref : forall xs rd left, C05Proofs.tcp_represents rd left -> C05Proofs.is_tcp rd -> Forall xchg_ok xs ->
  snd (session_fi cfg reqs rd xs) = XS.ref_session_fi left (map spec_xchg xs) /\ C05Proofs.is_tcp (fst (session_fi cfg reqs rd xs)).
Proof.
  induction xs as [|[[[st id] chunks] fi] xs IH]; intros rd left Hrep Htcp Hok; [split; [reflexivity|exact Htcp]|].
  inversion Hok as [|x xs' Hx Hrest]; subst. destruct Hx as ((r & t & d & Hph & Hid) & Hp & Hwf & Hne).
  cbn [session_fi map spec_xchg XS.ref_session_fi]. unfold tx_of_state. rewrite Hph. subst id.
  pose proof (exchange_from_ref cfg reqs rd left st r t d chunks fi Hrep Hph Hp Hwf Hne) as E.
  assert (Htcp1 : C05Proofs.is_tcp (fst (fst (exchange_from cfg reqs rd st chunks fi)))).
  { unfold exchange_from. pose proof (C05Proofs.run_reader_st_tcp (Reader.run_fuel rd chunks) rd chunks fi Htcp) as H.
    destruct (Reader.run_reader_st (Reader.run_fuel rd chunks) rd chunks fi) as [rd1 [items e]].
    destruct (deliver cfg reqs st (Reader.frames_of items)) as [[s1 o1] d1]. destruct (T.run cfg s1 (end_events e)) as [s2 o2]. exact H. }
  destruct (exchange_from cfg reqs rd st chunks fi) as [[rd1 e] res]. cbn [fst] in Htcp1. destruct E as (Hv & He & Hnext).
  rewrite Hv.
  destruct fi; try (split; [reflexivity|exact Htcp1]).
  rewrite <- He. destruct e; try (split; [reflexivity|exact Htcp1]).
  destruct (IH rd1 _ (Hnext eq_refl eq_refl) Htcp1 Hrest) as [I1 I2].
  destruct (session_fi cfg reqs rd1 xs) as [rd2 vs]. cbn [fst snd] in *. rewrite I1. split; [reflexivity|exact I2].
Qed.

Theorem connections_ref : forall conns rd, C05Proofs.is_tcp rd -> Forall (Forall xchg_ok) conns ->
  connections_from cfg reqs rd conns = XS.ref_connections (map (map spec_xchg) conns).
Proof.
  induction conns as [|c conns IH]; intros rd Htcp Hok; [reflexivity|].
  inversion Hok as [|c' cs Hc Hrest]; subst. cbn [connections_from XS.ref_connections map].
  assert (Hreset : Reader.reader_reset rd = Reader.reader_new Reader.KTcp) by (destruct rd as [[st|t st] b]; [reflexivity|destruct Htcp]).
  rewrite Hreset.
  destruct (session_fi_ref c (Reader.reader_new Reader.KTcp) [] C05Proofs.tcp_represents_fresh I Hc) as [S1 S2].
  destruct (session_fi cfg reqs (Reader.reader_new Reader.KTcp) c) as [rd1 vs]. cbn [fst snd] in *.
  rewrite S1. f_equal. exact (IH rd1 S2 Hrest).
Qed.

End Conns.
