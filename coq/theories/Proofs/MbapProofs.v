(* C05: the MBAP parser model, call by call, against the stream Spec; then the reader-level
   theorems by instantiating ReaderGeneric. The parser is first put in direct style (hdr, sparse) and shown
   equal to Model/Mbap.v on every reachable state; all later lemmas are about the direct style. *)
From Coq Require Import NArith List Arith Lia.
From Rodbus Require Import Base.Outcome Base.Frame Gen.Consts Model.Buffer Model.Mbap Model.Reader Spec.Framing
  Proofs.BufferProofs Proofs.ReaderGeneric Proofs.SpecCut.
Import ListNotations.

Definition mkf (tx u : N) (pdu : list N) : frame := {| f_tx := Some tx; f_dest := u; f_bcast := false; f_pdu := pdu |}.

(* the seven header bytes: (tx, unit, adu length) or the error, checks in the code's order *)
Definition hdr (h : list N) : (N * N * nat) + ferr :=
  match h with
  | [t1; t0; p1; p0; l1; l0; u] =>
      let proto := (p1 * 256 + p0)%N in
      let len := N.to_nat (l1 * 256 + l0)%N in
      if negb (N.eqb proto 0) then inr (UnknownProtocolId proto)
      else if Nat.ltb mbap_max_length_field len then inr (FrameLengthTooBig len mbap_max_length_field)
      else match len with O => inr MbapLengthZero | S n => inl ((t1 * 256 + t0)%N, u, n) end
  | _ => inr InternalError
  end.

Inductive sres := SNeed | SGot (f : frame) | SBad (e : ferr).
Definition lift_s (r : sres) : presult := match r with SNeed => Ok None | SGot f => Ok (Some f) | SBad e => Err e end.

Definition sbody (tx u : N) (n : nat) (b : buf) : pstate * buf * sres :=
  if Nat.ltb (buf_len b) n then (Header tx u n, b, SNeed)
  else (Begin, consume n b, SGot (mkf tx u (firstn n (b_pend b)))).
Definition sparse (st : pstate) (b : buf) : pstate * buf * sres :=
  match st with
  | Header tx u n => sbody tx u n b
  | Begin =>
      if Nat.ltb (buf_len b) 7 then (Begin, b, SNeed)
      else match hdr (firstn 7 (b_pend b)) with
           | inr e => (Begin, consume 7 b, SBad e)
           | inl (tx, u, n) => sbody tx u n (consume 7 b)
           end
  end.

(* ReaderGeneric's st_ok, need, cons_need for this parser *)
Definition st_ok (st : pstate) : Prop := match st with Begin => True | Header _ _ n => n <= 253 end.
Definition need (st : pstate) : nat := match st with Begin => 7 | Header _ _ n => n end.
Definition cons_need (st : pstate) : nat := match st with Begin => 7 | Header _ _ _ => 0 end.

Lemma hdr_ok h tx u n : hdr h = inl (tx, u, n) -> n <= 253.
Proof.
  unfold hdr. destruct h as [|t1 [|t0 [|p1 [|p0 [|l1 [|l0 [|u0 [|x h]]]]]]]]; try discriminate.
  destruct (negb _); [discriminate|]. unfold mbap_max_length_field.
  destruct (Nat.ltb_spec 254 (N.to_nat (l1 * 256 + l0))) as [|Hle]; [discriminate|].
  destruct (N.to_nat (l1 * 256 + l0)) eqn:E; [discriminate|]. intros H; inversion H; subst. lia.
Qed.
Lemma hdr_internal h : length h = 7 -> hdr h <> inr InternalError.
Proof.
  destruct h as [|t1 [|t0 [|p1 [|p0 [|l1 [|l0 [|u0 [|x h]]]]]]]]; try discriminate. intros _. unfold hdr.
  destruct (negb _); [discriminate|]. destruct (Nat.ltb _ _); [discriminate|]. destruct (N.to_nat _); discriminate.
Qed.

Lemma parse_header_eq b : wf b -> 7 <= buf_len b ->
  parse_header b = (consume 7 b, match hdr (firstn 7 (b_pend b)) with inl x => Ok x | inr e => Err e end).
Proof.
  intros Hwf H7. destruct b as [bb pp]. unfold buf_len in H7; cbn [b_pend] in *.
  destruct pp as [|t1 [|t0 [|p1 [|p0 [|l1 [|l0 [|u pp]]]]]]]; cbn [length] in H7; try lia.
  unfold parse_header, bind, ret.
  set (b0 := {| b_begin := bb; b_pend := t1 :: t0 :: p1 :: p0 :: l1 :: l0 :: u :: pp |}) in *.
  assert (L : forall k, k <= 7 -> wf (consume k b0)) by (intros k Hk; apply consume_wf; [assumption|unfold buf_len, b0; cbn [b_pend length]; lia]).
  rewrite (buf_read_u16_be_ok b0 t1 t0 _ Hwf eq_refl).
  rewrite (buf_read_u16_be_ok (consume 2 b0) p1 p0 _ (L 2 ltac:(lia)) eq_refl), consume_consume.
  rewrite (buf_read_u16_be_ok (consume (2 + 2) b0) l1 l0 _ (L (2 + 2) ltac:(lia)) eq_refl), consume_consume.
  rewrite (buf_read_u8_ok (consume (2 + 2 + 2) b0) u pp (L (2 + 2 + 2) ltac:(lia)) eq_refl), consume_consume.
  change (2 + 2 + 2 + 1) with 7. cbn [firstn b_pend b0 hdr].
  destruct (negb (N.eqb (p1 * 256 + p0) 0)); [reflexivity|].
  destruct (Nat.ltb mbap_max_length_field (N.to_nat (l1 * 256 + l0))); [reflexivity|].
  destruct (N.to_nat (l1 * 256 + l0)); reflexivity.
Qed.

Lemma frame_set_small d : length d <= 253 -> frame_set d = d.
Proof. intros H. unfold frame_set, max_adu_length. destruct (Nat.ltb_spec 253 (length d)); [lia|reflexivity]. Qed.

Lemma parse_in_header_eq tx u n b : wf b -> n <= 253 ->
  parse_in_header tx u n b = (let '(st, b', r) := sbody tx u n b in (st, b', lift_s r)).
Proof.
  intros Hwf Hn. unfold parse_in_header, sbody. destruct (Nat.ltb_spec (buf_len b) n); [reflexivity|].
  rewrite buf_read_ok by assumption. cbn [lift_s]. rewrite frame_set_small; [reflexivity|].
  rewrite firstn_length. lia.
Qed.

Theorem mbap_parse_eq st b : wf b -> st_ok st ->
  mbap_parse st b = (let '(st', b', r) := sparse st b in (st', b', lift_s r)).
Proof.
  intros Hwf Hst. destruct st as [|tx u n]; cbn [mbap_parse sparse].
  - unfold mbap_header_length. destruct (Nat.ltb_spec (buf_len b) 7); [reflexivity|].
    rewrite parse_header_eq by assumption. destruct (hdr (firstn 7 (b_pend b))) as [[[tx u] n]|e] eqn:Eh; [|reflexivity].
    apply parse_in_header_eq; [apply consume_wf; assumption|exact (hdr_ok _ _ _ _ Eh)].
  - apply parse_in_header_eq; assumption.
Qed.

Corollary mbap_parse_no_panic st b : wf b -> st_ok st -> snd (mbap_parse st b) <> Panic.
Proof. intros Hwf Hst. rewrite mbap_parse_eq by assumption. destruct (sparse st b) as [[st' b'] r]. destruct r; discriminate. Qed.

Definition ref_from (F : nat) (st : pstate) (s : list N) (fi : fin) : list frame * ending :=
  match st with
  | Begin => ref F s fi
  | Header tx u n =>
      if Nat.ltb (length s) n then ([], end_of fi)
      else consf (mkf tx u (firstn n s)) (ref F (skipn n s) fi)
  end.

Lemma firstn_app_le {A} k (l1 l2 : list A) : k <= length l1 -> firstn k (l1 ++ l2) = firstn k l1.
Proof. intros H. rewrite firstn_app. replace (k - length l1) with 0 by lia. cbn. apply app_nil_r. Qed.
Lemma skipn_app_le {A} k (l1 l2 : list A) : k <= length l1 -> skipn k (l1 ++ l2) = skipn k l1 ++ l2.
Proof. intros H. rewrite skipn_app. replace (k - length l1) with 0 by lia. reflexivity. Qed.

(* what Spec/Framing.ref and ref_tail do at the head of a stream *)
Definition mcut (s : list N) : cutres :=
  if Nat.ltb (length s) 7 then CShort
  else match hdr (firstn 7 s) with
       | inr e => CBad e (skipn 7 s)
       | inl (tx, u, n) => if Nat.ltb (length (skipn 7 s)) n then CShort
                           else CFrame (mkf tx u (firstn n (skipn 7 s))) (skipn n (skipn 7 s))
       end.

Lemma ref_S F s fi : ref (S F) s fi = cframes (fun t => ref F t fi) fi (mcut s).
Proof.
  destruct s as [|t1 [|t0 [|p1 [|p0 [|l1 [|l0 [|u s]]]]]]]; try reflexivity. unfold mcut.
  cbn [ref length firstn skipn hdr]. destruct (Nat.ltb_spec (S (S (S (S (S (S (S (length s))))))) ) 7); [lia|].
  unfold be, mbap_max_length_field. destruct (negb _); [reflexivity|]. destruct (Nat.ltb 254 _); [reflexivity|].
  destruct (N.to_nat (l1 * 256 + l0)) as [|n]; [reflexivity|]. cbn [Nat.eqb]. replace (S n - 1) with n by lia.
  destruct (Nat.ltb (length s) n); reflexivity.
Qed.
(* the same walk as ref_S *)
Lemma ref_tail_S F s : ref_tail (S F) s = ctail (ref_tail F) s (mcut s).
Proof.
  destruct s as [|t1 [|t0 [|p1 [|p0 [|l1 [|l0 [|u s]]]]]]]; try reflexivity. unfold mcut.
  cbn [ref_tail length firstn skipn hdr]. destruct (Nat.ltb_spec (S (S (S (S (S (S (S (length s))))))) ) 7); [lia|].
  unfold be, mbap_max_length_field. destruct (negb _); [reflexivity|]. destruct (Nat.ltb 254 _); [reflexivity|].
  destruct (N.to_nat (l1 * 256 + l0)) as [|n]; [reflexivity|]. cbn [Nat.eqb]. replace (S n - 1) with n by lia.
  destruct (Nat.ltb (length s) n); reflexivity.
Qed.

Lemma mcut_suffix s : match mcut s with CShort => True | CBad _ l | CFrame _ l => exists pre, pre <> [] /\ s = pre ++ l end.
Proof.
  unfold mcut. destruct (Nat.ltb_spec (length s) 7) as [|H7]; [exact I|].
  assert (Hne : forall l : list N, firstn 7 s ++ l <> []).
  { intros l E. apply (f_equal (@length N)) in E. rewrite app_length, firstn_length in E. cbn [length] in E. lia. }
  destruct (hdr (firstn 7 s)) as [[[tx u] n]|e].
  - destruct (Nat.ltb _ n); [exact I|]. exists (firstn 7 s ++ firstn n (skipn 7 s)). split; [apply Hne|]. now rewrite <- app_assoc, !firstn_skipn.
  - exists (firstn 7 s). split; [rewrite <- (app_nil_r (firstn 7 s)); apply Hne|now rewrite firstn_skipn].
Qed.
Lemma mcut_app s1 s2 :
  match mcut s1 with
  | CShort => True
  | CBad e l => mcut (s1 ++ s2) = CBad e (l ++ s2)
  | CFrame f rest => mcut (s1 ++ s2) = CFrame f (rest ++ s2)
  end.
Proof.
  unfold mcut. destruct (Nat.ltb_spec (length s1) 7) as [|H7]; [exact I|]. rewrite app_length.
  destruct (Nat.ltb_spec (length s1 + length s2) 7); [lia|]. rewrite firstn_app_le, skipn_app_le by lia.
  destruct (hdr (firstn 7 s1)) as [[[tx u] n]|e]; [|reflexivity].
  destruct (Nat.ltb_spec (length (skipn 7 s1)) n); [exact I|]. rewrite app_length.
  destruct (Nat.ltb_spec (length (skipn 7 s1) + length s2) n); [lia|]. now rewrite firstn_app_le, skipn_app_le by lia.
Qed.

Lemma ref_fuel : forall f1 f2 s fi, length s < f1 -> length s < f2 -> ref f1 s fi = ref f2 s fi.
Proof. exact (rf_fuel mcut mcut_suffix ref ref_S). Qed.

Lemma ref_step F s fi tx u n :
  length s < F -> 7 <= length s -> hdr (firstn 7 s) = inl (tx, u, n) ->
  ref F s fi = ref_from F (Header tx u n) (skipn 7 s) fi.
Proof.
  intros HF H7 Hh. rewrite (rf_step mcut mcut_suffix ref ref_S F s fi HF). unfold mcut.
  destruct (Nat.ltb_spec (length s) 7); [lia|]. rewrite Hh. cbn [ref_from]. now destruct (Nat.ltb _ n).
Qed.
Lemma ref_bad F s fi e : 0 < F -> 7 <= length s -> hdr (firstn 7 s) = inr e -> ref F s fi = ([], EndBad e).
Proof. intros HF H7 Hh. destruct F; [lia|]. rewrite ref_S. unfold mcut. destruct (Nat.ltb_spec (length s) 7); [lia|]. now rewrite Hh. Qed.
Lemma ref_short F s fi : 0 < F -> length s < 7 -> ref F s fi = ([], end_of fi).
Proof. intros HF H7. destruct F; [lia|]. rewrite ref_S. unfold mcut. now destruct (Nat.ltb_spec (length s) 7); [|lia]. Qed.

Lemma body_got tx u n b st' b' f fut F fi :
  sbody tx u n b = (st', b', SGot f) ->
  st' = Begin /\ b' = consume n b /\ n <= buf_len b /\
  ref_from F (Header tx u n) (b_pend b ++ fut) fi = consf f (ref F (b_pend b' ++ fut) fi).
Proof.
  unfold sbody. destruct (Nat.ltb_spec (buf_len b) n) as [|Hn]; [discriminate|].
  intros H; inversion H; subst; clear H. repeat split; [assumption|]. cbn [ref_from consume b_pend].
  rewrite app_length. unfold buf_len in Hn. destruct (Nat.ltb_spec (length (b_pend b) + length fut) n); [lia|].
  rewrite skipn_app_le, firstn_app_le by assumption. reflexivity.
Qed.
Lemma body_need tx u n b st' b' :
  sbody tx u n b = (st', b', SNeed) -> st' = Header tx u n /\ b' = b /\ buf_len b < n.
Proof. unfold sbody. destruct (Nat.ltb_spec (buf_len b) n); [|discriminate]. intros Hq; inversion Hq; subst; repeat split; assumption. Qed.
Lemma body_bad tx u n b st' b' e : sbody tx u n b <> (st', b', SBad e).
Proof. unfold sbody. destruct (Nat.ltb _ _); discriminate. Qed.

(* with a well-formed header pending, Begin on b and Header on what follows the header see the same Spec *)
Lemma ref_from_after_header b fut F fi tx u n :
  7 <= buf_len b -> hdr (firstn 7 (b_pend b)) = inl (tx, u, n) -> length (b_pend b ++ fut) < F ->
  ref_from F Begin (b_pend b ++ fut) fi = ref_from F (Header tx u n) (b_pend (consume 7 b) ++ fut) fi.
Proof.
  intros H7 Eh HF. unfold buf_len in H7. cbn [ref_from consume b_pend]. rewrite <- skipn_app_le by lia.
  apply ref_step; [exact HF|rewrite app_length; lia|now rewrite firstn_app_le by lia].
Qed.

Lemma parse_got st b st' b' f :
  st_ok st -> sparse st b = (st', b', SGot f) ->
  st' = Begin /\ (exists k, b' = consume k b /\ k <= buf_len b /\ cons_need st <= k) /\
  forall fut F fi, length (b_pend b ++ fut) < F ->
    ref_from F st (b_pend b ++ fut) fi = consf f (ref F (b_pend b' ++ fut) fi).
Proof.
  intros Hst. destruct st as [|tx u n]; cbn [sparse].
  - destruct (Nat.ltb_spec (buf_len b) 7) as [|H7]; [discriminate|].
    destruct (hdr (firstn 7 (b_pend b))) as [[[tx u] n]|e] eqn:Eh; [|discriminate]. intros Hp.
    destruct (body_got _ _ _ _ _ _ _ [] 1 FinEof Hp) as (-> & -> & Hle & _). rewrite consume_len in Hle.
    split; [reflexivity|]. split.
    + exists (7 + n). rewrite consume_consume. split; [reflexivity|]. cbn [cons_need]. split; lia.
    + intros fut F fi HF. destruct (body_got _ _ _ _ _ _ _ fut F fi Hp) as (_ & _ & _ & Hr).
      now rewrite (ref_from_after_header b fut F fi tx u n H7 Eh HF).
  - intros Hp. destruct (body_got _ _ _ _ _ _ _ [] 1 FinEof Hp) as (-> & -> & Hle & _).
    split; [reflexivity|]. split; [exists n; cbn [cons_need]; repeat split; [assumption|lia]|].
    intros fut F fi _. now destruct (body_got _ _ _ _ _ _ _ fut F fi Hp) as (_ & _ & _ & Hr).
Qed.

(* the only error exit: a malformed header met in Begin, which stays Begin *)
Lemma sparse_bad st b st' b' e : sparse st b = (st', b', SBad e) ->
  st = Begin /\ st' = Begin /\ b' = consume 7 b /\ 7 <= buf_len b /\ hdr (firstn 7 (b_pend b)) = inr e.
Proof.
  destruct st as [|tx u n]; cbn [sparse]; [|intros Hp; exfalso; eapply body_bad; eauto].
  destruct (Nat.ltb_spec (buf_len b) 7) as [|H7]; [discriminate|].
  destruct (hdr (firstn 7 (b_pend b))) as [[[tx u] n]|e0] eqn:Eh; [intros Hp; exfalso; eapply body_bad; eauto|].
  intros H; inversion H; subst. auto.
Qed.

Lemma parse_bad st b st' b' e :
  sparse st b = (st', b', SBad e) ->
  (exists k, b' = consume k b /\ k <= buf_len b /\ cons_need st <= k) /\
  forall fut F fi, 0 < F -> ref_from F st (b_pend b ++ fut) fi = ([], EndBad e).
Proof.
  intros Hp. destruct (sparse_bad _ _ _ _ _ Hp) as (-> & -> & -> & H7 & Eh).
  split; [exists 7; cbn [cons_need]; repeat split; [assumption|lia]|].
  intros fut F fi HF. cbn [ref_from]. unfold buf_len in H7. apply ref_bad; [assumption|rewrite app_length; lia|].
  rewrite firstn_app_le by lia. exact Eh.
Qed.

Lemma parse_need st b st' b' :
  st_ok st -> sparse st b = (st', b', SNeed) ->
  st_ok st' /\ buf_len b' < need st' /\
  (exists k, b' = consume k b /\ k <= buf_len b /\ cons_need st <= k + cons_need st') /\
  (forall fut F fi, length (b_pend b ++ fut) < F -> ref_from F st (b_pend b ++ fut) fi = ref_from F st' (b_pend b' ++ fut) fi).
Proof.
  intros Hst. destruct st as [|tx u n]; cbn [sparse].
  - destruct (Nat.ltb_spec (buf_len b) 7) as [Hlt|H7].
    + intros H; inversion H; subst. split; [exact I|]. split; [exact Hlt|]. split; [|reflexivity].
      exists 0. rewrite consume_0. split; [reflexivity|]. split; lia.
    + destruct (hdr (firstn 7 (b_pend b))) as [[[tx u] n]|e0] eqn:Eh; [|discriminate].
      pose proof (hdr_ok _ _ _ _ Eh) as Hn. intros Hp.
      destruct (body_need _ _ _ _ _ _ Hp) as (-> & -> & Hlt).
      split; [exact Hn|]. split; [exact Hlt|]. split.
      * exists 7. split; [reflexivity|]. cbn [cons_need]. split; lia.
      * intros fut F fi HF. exact (ref_from_after_header b fut F fi tx u n H7 Eh HF).
  - intros Hp. destruct (body_need _ _ _ _ _ _ Hp) as (-> & -> & Hlt).
    split; [exact Hst|]. split; [exact Hlt|]. split; [|reflexivity].
    exists 0. rewrite consume_0. split; [reflexivity|]. split; lia.
Qed.

Lemma stuck_eof st p F fi : st_ok st -> length p < need st -> 0 < F -> ref_from F st p fi = ([], end_of fi).
Proof.
  intros _ Hn HF. destruct st as [|tx u n]; cbn [ref_from need] in *.
  - apply ref_short; assumption.
  - destruct (Nat.ltb_spec (length p) n); [reflexivity|lia].
Qed.

Section Inst.
Let H_mk : forall st b, parser_parse (PTcp st) b = let '(st', b', r) := mbap_parse st b in (PTcp st', b', r).
Proof. reflexivity. Qed.

Local Ltac via_sparse Hwf Hst Ep st b :=
  rewrite (mbap_parse_eq st b Hwf Hst) in Ep;
  destruct (sparse st b) as [[st0 b0] r0] eqn:Es; destruct r0; inversion Ep; subst; clear Ep.

Lemma mbap_none st b st' b' : wf b -> st_ok st -> mbap_parse st b = (st', b', Ok None) ->
  st_ok st' /\ buf_len b' < need st' /\
  (exists k, b' = consume k b /\ k <= buf_len b /\ cons_need st <= k + cons_need st') /\
  (forall fut F fi, length (b_pend b ++ fut) < F -> ref_from F st (b_pend b ++ fut) fi = ref_from F st' (b_pend b' ++ fut) fi).
Proof. intros Hwf Hst Ep. via_sparse Hwf Hst Ep st b. eapply parse_need; eassumption. Qed.
Lemma mbap_some st b st' b' f : wf b -> st_ok st -> mbap_parse st b = (st', b', Ok (Some f)) ->
  st' = Begin /\ (exists k, b' = consume k b /\ k <= buf_len b /\ cons_need st <= k) /\
  (forall fut F fi, length (b_pend b ++ fut) < F -> ref_from F st (b_pend b ++ fut) fi = consf f (ref F (b_pend b' ++ fut) fi)).
Proof. intros Hwf Hst Ep. via_sparse Hwf Hst Ep st b. eapply parse_got; eassumption. Qed.
Lemma mbap_err' st b st' b' e : wf b -> st_ok st -> mbap_parse st b = (st', b', Err e) ->
  (exists k, b' = consume k b /\ k <= buf_len b /\ cons_need st <= k) /\
  (forall fut F fi, length (b_pend b ++ fut) < F -> ref_from F st (b_pend b ++ fut) fi = ([], EndBad e)).
Proof.
  intros Hwf Hst Ep. via_sparse Hwf Hst Ep st b. destruct (parse_bad _ _ _ _ _ Es) as [Hk Hr]. split; [exact Hk|].
  intros fut F fi HF. apply Hr. lia.
Qed.
Lemma mbap_panic st b st' b' : wf b -> st_ok st -> mbap_parse st b <> (st', b', Panic).
Proof. intros Hwf Hst Ep. pose proof (mbap_parse_no_panic st b Hwf Hst) as H. rewrite Ep in H. now apply H. Qed.
Lemma mbap_need_cap st : st_ok st -> need st <= cap.
Proof. destruct st; cbn; unfold cap, buffer_capacity; lia. Qed.

Lemma all_true (n : net) : Forall (fun _ : list N => True) n.
Proof. induction n; constructor; auto. Qed.
Definition mbap_run_ref fuel b n fi F Hwf := run_ref pstate PTcp mbap_parse Begin st_ok need cons_need ref ref_from
  (fun _ => True) I (fun _ _ _ _ => I) (fun _ _ _ => I) (fun _ _ _ => I)
  H_mk (fun _ => eq_refl) I (fun _ _ _ => eq_refl) ltac:(cbn; lia) mbap_need_cap stuck_eof
  (fun st b st' b' Hwf _ => mbap_none st b st' b' Hwf) (fun st b st' b' f Hwf _ => mbap_some st b st' b' f Hwf)
  (fun st b st' b' e Hwf _ => mbap_err' st b st' b' e Hwf) (fun st b st' b' Hwf _ => mbap_panic st b st' b' Hwf) fuel b n fi F Hwf I (all_true n).
Definition mbap_nf_no_panic fuel st b n fi Hwf := nf_no_panic pstate PTcp mbap_parse Begin st_ok need cons_need ref ref_from
  (fun _ => True) I (fun _ _ _ _ => I) (fun _ _ _ => I) (fun _ _ _ => I)
  H_mk (fun _ => eq_refl) I (fun _ _ _ => eq_refl) ltac:(cbn; lia) mbap_need_cap stuck_eof
  (fun st b st' b' Hwf _ => mbap_none st b st' b' Hwf) (fun st b st' b' f Hwf _ => mbap_some st b st' b' f Hwf)
  (fun st b st' b' e Hwf _ => mbap_err' st b st' b' e Hwf) (fun st b st' b' Hwf _ => mbap_panic st b st' b' Hwf) fuel st b n fi Hwf I (all_true n).
End Inst.

Lemma mbap_tail_len s : length (mbap_tail s) <= length s.
Proof. exact (tl_len mcut mcut_suffix ref_tail (fun _ => eq_refl) ref_tail_S _ s). Qed.
Lemma mbap_ref_app F s1 s2 fi : length (s1 ++ s2) < F ->
  ref F (s1 ++ s2) fi =
  match ref F s1 FinPending with
  | (fs1, EndPending) => (fs1 ++ fst (ref F (mbap_tail s1 ++ s2) fi), snd (ref F (mbap_tail s1 ++ s2) fi))
  | x => x
  end.
Proof. exact (rf_app_tail mcut mcut_suffix mcut_app ref ref_S ref_tail (fun _ => eq_refl) ref_tail_S F s1 s2 fi). Qed.

Lemma mbap_stable st b : wf b -> st_ok st -> buf_len b < need st -> mbap_parse st b = (st, b, Ok None).
Proof.
  intros Hwf Hst Hlt. rewrite mbap_parse_eq by assumption. destruct st as [|tx u n]; cbn [sparse need] in *.
  - destruct (Nat.ltb_spec (buf_len b) 7); [reflexivity|lia].
  - unfold sbody. destruct (Nat.ltb_spec (buf_len b) n); [reflexivity|lia].
Qed.

Lemma mbap_H_mk : forall st b, parser_parse (PTcp st) b = let '(st', b', r) := mbap_parse st b in (PTcp st', b', r).
Proof. reflexivity. Qed.
Definition mbap_args_stable := fun st b Hwf (_ : True) => mbap_stable st b Hwf.

(* the MBAP parser has the base laws of ReaderGeneric (no condition on the bytes): whatever holds for every such parser holds for it *)
Lemma mbap_parser T : for_any_parser T -> T pstate PTcp mbap_parse Begin st_ok need cons_need ref ref_from (fun _ => True).
Proof.
  intros H. exact (H pstate PTcp mbap_parse Begin st_ok need cons_need ref ref_from (fun _ => True)
    I (fun _ _ _ _ => I) (fun _ _ _ => I) (fun _ _ _ => I)
    mbap_H_mk (fun _ => eq_refl) I (fun _ _ _ => eq_refl) ltac:(cbn; lia) mbap_need_cap stuck_eof
    (fun st b st' b' Hwf _ => mbap_none st b st' b' Hwf) (fun st b st' b' f Hwf _ => mbap_some st b st' b' f Hwf)
    (fun st b st' b' e Hwf _ => mbap_err' st b st' b' e Hwf) (fun st b st' b' Hwf _ => mbap_panic st b st' b' Hwf)).
Qed.

Definition mbap_nf_fuel_indep f1 f2 st b n fi Hwf := nf_fuel_indep pstate PTcp mbap_parse Begin st_ok need cons_need ref ref_from
  (fun _ => True) I (fun _ _ _ _ => I) (fun _ _ _ => I) (fun _ _ _ => I)
  mbap_H_mk (fun _ => eq_refl) I (fun _ _ _ => eq_refl) ltac:(cbn; lia) mbap_need_cap stuck_eof
  (fun st b st' b' Hwf _ => mbap_none st b st' b' Hwf) (fun st b st' b' f Hwf _ => mbap_some st b st' b' f Hwf)
  (fun st b st' b' e Hwf _ => mbap_err' st b st' b' e Hwf) (fun st b st' b' Hwf _ => mbap_panic st b st' b' Hwf) mbap_args_stable f1 f2 st b n fi Hwf I (all_true n).
Definition mbap_run_st_app G1 st b n1 n2 fi G2 G Hwf := run_st_app pstate PTcp mbap_parse Begin st_ok need cons_need ref ref_from
  (fun _ => True) I (fun _ _ _ _ => I) (fun _ _ _ => I) (fun _ _ _ => I)
  mbap_H_mk (fun _ => eq_refl) I (fun _ _ _ => eq_refl) ltac:(cbn; lia) mbap_need_cap stuck_eof
  (fun st b st' b' Hwf _ => mbap_none st b st' b' Hwf) (fun st b st' b' f Hwf _ => mbap_some st b st' b' f Hwf)
  (fun st b st' b' e Hwf _ => mbap_err' st b st' b' e Hwf) (fun st b st' b' Hwf _ => mbap_panic st b st' b' Hwf) mbap_args_stable G1 st b n1 n2 fi G2 G Hwf I (all_true n1) (all_true n2).
Definition mbap_run_ref_from G st b n fi F Hwf := run_ref_from pstate PTcp mbap_parse Begin st_ok need cons_need ref ref_from
  (fun _ => True) I (fun _ _ _ _ => I) (fun _ _ _ => I) (fun _ _ _ => I)
  mbap_H_mk (fun _ => eq_refl) I (fun _ _ _ => eq_refl) ltac:(cbn; lia) mbap_need_cap stuck_eof
  (fun st b st' b' Hwf _ => mbap_none st b st' b' Hwf) (fun st b st' b' f Hwf _ => mbap_some st b st' b' f Hwf)
  (fun st b st' b' e Hwf _ => mbap_err' st b st' b' e Hwf) (fun st b st' b' Hwf _ => mbap_panic st b st' b' Hwf) mbap_args_stable G st b n fi F Hwf I (all_true n).
Definition mbap_run_st_pending G st b n r1 l1 Hwf := run_st_pending pstate PTcp mbap_parse Begin st_ok need cons_need ref ref_from
  (fun _ => True) I (fun _ _ _ _ => I) (fun _ _ _ => I) (fun _ _ _ => I)
  mbap_H_mk (fun _ => eq_refl) I (fun _ _ _ => eq_refl) ltac:(cbn; lia) mbap_need_cap stuck_eof
  (fun st b st' b' Hwf _ => mbap_none st b st' b' Hwf) (fun st b st' b' f Hwf _ => mbap_some st b st' b' f Hwf)
  (fun st b st' b' e Hwf _ => mbap_err' st b st' b' e Hwf) (fun st b st' b' Hwf _ => mbap_panic st b st' b' Hwf) mbap_args_stable G st b n r1 l1 Hwf I (all_true n).
Definition mbap_waiting := waiting pstate PTcp st_ok need (fun _ => True).
Definition mbap_represents := represents pstate PTcp st_ok ref ref_from (fun _ => True).
