(* C04 (client response handling). read_payload is the shape the read replies share; with it each read
   parser has a closed form (parse_bits_closed, parse_registers_closed). ref_details is the Spec's
   ref_reply below the function code; every parser `decides` it (the data, or an error that is
   no exception, never a panic); handle_response_spec puts the function code and the exception
   reply on top, and the C04 statements are read off it. *)
From Coq Require Import NArith List Lia Bool Arith.
From Rodbus Require Import Base.Outcome Base.Cursor Base.ClientTypes Model.Range Model.ClientRequest
  Spec.ClientCodecSpec Gen.Consts Gen.ClientTables Proofs.PackProofs
  Proofs.ClientCodecProofs.
Import ListNotations.
Local Open Scope N_scope.

(* the Spec's function numbers are the code's *)
Lemma reply_fc_function r : function_of r = reply_fc r.
Proof. destruct r; reflexivity. Qed.

Lemma exception_reply r c :
  handle_response r [reply_fc r + 128; c] = Err (EException (excode_of_u8 c)).
Proof. destruct r; reflexivity. Qed.

Lemma excode_roundtrip c : u8_of_excode (excode_of_u8 c) = c.
Proof.
  (* the literals of the table have at most four bits: four splits of the numeral decide every arm *)
  unfold excode_of_u8. destruct c as [|p]; [reflexivity|].
  do 4 (destruct p as [p|p|]; try reflexivity).
Qed.

Lemma read_exact {A} n (c : rcur) (k : list N -> outcome req_err A) :
  obind (R (rd_bytes n c)) (fun '(bytes, c2) => obind (expect_empty c2) (fun _ => k bytes)) =
  if (length c <? n)%nat then Err EInsufficientBytes
  else if (n <? length c)%nat then Err ETrailingBytes else k c.
Proof.
  unfold rd_bytes, R. destruct (Nat.leb_spec n (length c)) as [Hle|Hgt]; cbn [of_option obind].
  - destruct (Nat.ltb_spec (length c) n); [lia|]. unfold expect_empty, rd_is_empty.
    pose proof (skipn_length n c) as Hs.
    destruct (skipn n c) eqn:E; cbn [length] in Hs; destruct (Nat.ltb_spec n (length c)); try lia; cbn [obind]; [|reflexivity].
    now rewrite firstn_all2 by lia.
  - destruct (Nat.ltb_spec (length c) n); [reflexivity|lia].
Qed.

(* the shape all read replies share: byte count (ignored), exactly n data bytes, nothing else *)
Local Open Scope outcome_scope.
Lemma read_payload {A} (n : N) (k : list N -> outcome req_err A) c :
  ('(_, c1) <- R (rd_u8 c) ;; '(bytes, c2) <- R (rd_bytes (N.to_nat n) c1) ;; _ <- expect_empty c2 ;; k bytes) =
  match c with
  | [] => Err EInsufficientBytes
  | _ :: data => if len data <? n then Err EInsufficientBytes else if n <? len data then Err ETrailingBytes else k data
  end.
Proof.
  destruct c as [|bc data]; [reflexivity|]. cbn [rd_u8 R of_option obind]. rewrite (read_exact (N.to_nat n) data k). unfold len.
  destruct (Nat.ltb_spec (length data) (N.to_nat n)), (N.ltb_spec (N.of_nat (length data)) n); try lia; [reflexivity|].
  destruct (Nat.ltb_spec (N.to_nat n) (length data)), (N.ltb_spec n (N.of_nat (length data))); try lia; reflexivity.
Qed.

Lemma bit_at_pos bytes pos value : nth_error bytes (N.to_nat (pos / 8)) = Some value ->
  N.testbit value (pos mod 8) = bit_at bytes (N.to_nat pos).
Proof.
  intros E. apply (nth_error_nth _ _ 0) in E. unfold bit_at.
  rewrite <- E, N2Nat.inj_div, <- (N2Nat.id (pos mod 8)), N2Nat.inj_mod. reflexivity.
Qed.

Lemma bit_collect_spec bytes s n : is_u16 n -> s + n <= 65536 ->
  N.of_nat (length bytes) = bytes_for_bits n ->
  forall fuel pos, pos + N.of_nat fuel = n ->
  bit_collect fuel bytes s n pos =
  Ok (map (fun k => (s + N.of_nat k, bit_at bytes k)) (seq (N.to_nat pos) fuel)).
Proof.
  unfold is_u16. intros Hn Hs Hlen. induction fuel as [|f IH]; intros pos Hp; [reflexivity|].
  cbn [bit_collect seq map].
  destruct (N.eqb_spec pos n); [lia|].
  destruct (nth_error bytes (N.to_nat (pos / 8))) as [value|] eqn:E;
    [|apply nth_error_None in E; pose proof (byte_index_lt pos n); lia].
  destruct (N.ltb_spec 65535 (s + pos)); [lia|]. destruct (N.ltb_spec 65535 (pos + 1)); [lia|].
  rewrite IH by lia. cbn [obind]. rewrite PackProofs.land_bit_test, (bit_at_pos _ _ _ E), N.add_1_r, N2Nat.inj_succ, N2Nat.id. reflexivity.
Qed.

Lemma parse_bits_closed s n rest : range_wf (s, n) ->
  parse_bits_response (s, n) rest =
  match rest with
  | [] => Err EInsufficientBytes
  | _ :: data => if len data <? bytes_for_bits n then Err EInsufficientBytes
                 else if bytes_for_bits n <? len data then Err ETrailingBytes
                 else Ok (RespBits (indexed s (bit_at data) n))
  end.
Proof.
  unfold range_wf, is_u16. cbn [fst snd]. intros (Hs & Hn & H1 & Hov).
  unfold parse_bits_response. cbn [fst snd]. rewrite read_payload. change (num_bytes_for_bits n) with (bytes_for_bits n).
  destruct rest as [|bc data]; [reflexivity|].
  destruct (N.ltb_spec (len data) (bytes_for_bits n)); [reflexivity|]. destruct (N.ltb_spec (bytes_for_bits n) (len data)); [reflexivity|].
  rewrite (bit_collect_spec data s n) by (unfold is_u16, len in *; lia). reflexivity.
Qed.

Lemma reg_at_shift h l rest k : reg_at (h :: l :: rest) (S k) = reg_at rest k.
Proof. unfold reg_at. replace (2 * S k)%nat with (S (S (2 * k))) by lia. reflexivity. Qed.

Lemma reg_collect_spec s : forall m bytes i, length bytes = (2 * m)%nat ->
  s + i + N.of_nat m <= 65536 ->
  reg_collect bytes s i = Ok (map (fun k => (s + i + N.of_nat k, reg_at bytes k)) (seq 0 m)).
Proof.
  induction m as [|m IH]; intros bytes i Hlen Hs.
  - destruct bytes; [reflexivity|discriminate].
  - destruct bytes as [|h [|l rest]]; try (cbn in Hlen; lia).
    cbn [reg_collect]. rewrite (N.mod_small i 65536) by lia.
    destruct (N.ltb_spec 65535 (s + i)); [lia|].
    rewrite (IH rest (i + 1)) by (cbn [length] in *; lia). cbn [obind seq map].
    f_equal. f_equal; [f_equal; lia|].
    rewrite <- seq_shift, map_map. apply map_ext. intros k. rewrite reg_at_shift. f_equal. lia.
Qed.

Lemma reg_collect_indexed s n bytes : len bytes = 2 * n -> s + n <= 65536 ->
  reg_collect bytes s 0 = Ok (indexed s (reg_at bytes) n).
Proof.
  intros Hl Hs. rewrite (reg_collect_spec s (N.to_nat n)) by (unfold len in *; lia).
  unfold indexed. f_equal. apply map_ext. intros k. f_equal. lia.
Qed.

Lemma parse_registers_closed s n rest : range_wf (s, n) ->
  parse_registers_response (s, n) rest =
  match rest with
  | [] => Err EInsufficientBytes
  | _ :: data => if len data <? 2 * n then Err EInsufficientBytes
                 else if 2 * n <? len data then Err ETrailingBytes
                 else Ok (RespRegisters (indexed s (reg_at data) n))
  end.
Proof.
  unfold range_wf, is_u16. cbn [fst snd]. intros (Hs & Hn & H1 & Hov).
  unfold parse_registers_response. cbn [fst snd]. replace (2 * N.to_nat n)%nat with (N.to_nat (2 * n)) by lia. rewrite read_payload.
  destruct rest as [|bc data]; [reflexivity|].
  destruct (N.ltb_spec (len data) (2 * n)); [reflexivity|]. destruct (N.ltb_spec (2 * n) (len data)); [reflexivity|].
  rewrite (reg_collect_indexed s n) by lia. reflexivity.
Qed.

(* ref_reply after its function code: what the Spec asks of the rest of the PDU. The two bit reads,
   the two register reads and the two write-multiple requests differ in the function code only. *)
Definition ref_details (r : request) (rest : list N) : option response :=
  match r, rest with
  | (RReadCoils (s, n) | RReadDiscreteInputs (s, n)), _ :: data =>
      if len data =? bytes_for_bits n then Some (RespBits (indexed s (bit_at data) n)) else None
  | (RReadHoldingRegisters (s, n) | RReadInputRegisters (s, n)), _ :: data =>
      if len data =? 2 * n then Some (RespRegisters (indexed s (reg_at data) n)) else None
  | RWriteSingleCoil i v, [i1; i0; v1; v0] =>
      if (u16 i1 i0 =? i) && (u16 v1 v0 =? (if v then 65280 else 0)) then Some (RespCoil i v) else None
  | RWriteSingleRegister i v, [i1; i0; v1; v0] =>
      if (u16 i1 i0 =? i) && (u16 v1 v0 =? v) then Some (RespRegister i v) else None
  | (RWriteMultipleCoils (s, n) _ | RWriteMultipleRegisters (s, n) _), [s1; s0; n1; n0] =>
      if (u16 s1 s0 =? s) && (u16 n1 n0 =? n) then Some (RespRange s n) else None
  | _, _ => None
  end.

Lemma ref_reply_details r pdu :
  ref_reply r pdu = match pdu with [] => None | f :: rest => if f =? reply_fc r then ref_details r rest else None end.
Proof.
  destruct r as [[s n]|[s n]|[s n]|[s n]|i x|i x|[s n] vs|[s n] vs], pdu as [|f [|a [|b [|c [|d [|e rest]]]]]];
    try reflexivity; cbn [ref_reply ref_details reply_fc]; destruct (f =? _); reflexivity.
Qed.

(* the errors of a reply that is neither genuine nor an exception *)
Definition bad_reply (e : req_err) : Prop :=
  match e with
  | EInsufficientBytes | ETrailingBytes | EReplyEchoMismatch | EUnknownResponseFunction | EUnknownCoilState
  | ECountOfZero | EAddressOverflow => True
  | _ => False
  end.

(* o is what the Spec asks: the data if there is some, else such an error (in particular no panic) *)
Definition decides {A} (o : outcome req_err A) (ref : option A) : Prop :=
  match ref with Some v => o = Ok v | None => exists e, o = Err e /\ bad_reply e end.

Lemma exact_len_decides {A} (a b : N) (x : A) :
  decides (if a <? b then Err EInsufficientBytes else if b <? a then Err ETrailingBytes else Ok x)
          (if a =? b then Some x else None).
Proof. destruct (N.ltb_spec a b), (N.ltb_spec b a), (N.eqb_spec a b); try lia; cbn; (reflexivity || now eexists). Qed.

Lemma bits_decides s n rest : range_wf (s, n) ->
  decides (parse_bits_response (s, n) rest) (ref_details (RReadCoils (s, n)) rest).
Proof.
  intros Hwf. rewrite parse_bits_closed by assumption.
  destruct rest as [|bc data]; [now exists EInsufficientBytes|apply exact_len_decides].
Qed.

Lemma registers_decides s n rest : range_wf (s, n) ->
  decides (parse_registers_response (s, n) rest) (ref_details (RReadHoldingRegisters (s, n)) rest).
Proof.
  intros Hwf. rewrite parse_registers_closed by assumption.
  destruct rest as [|bc data]; [now exists EInsufficientBytes|apply exact_len_decides].
Qed.

(* coil_from_u16 against the echo the Spec expects for value v *)
Lemma coil_from_u16_echo raw v :
  match coil_from_u16 raw with
  | Ok rv => Bool.eqb rv v = (raw =? (if v then 65280 else 0))
  | Err e => e = EUnknownCoilState /\ (raw =? (if v then 65280 else 0)) = false
  | Panic => False
  end.
Proof.
  unfold coil_from_u16, coil_on, coil_off. destruct (N.eqb_spec raw 65280) as [->|H1]; [now destruct v|].
  destruct (N.eqb_spec raw 0) as [->|H0]; [now destruct v|]. split; [reflexivity|]. destruct v; now apply N.eqb_neq.
Qed.

(* the single writes: two u16, the end of the PDU, then the echo *)
Lemma single_coil_decides i x rest : decides (parse_single_coil i x rest) (ref_details (RWriteSingleCoil i x) rest).
Proof.
  destruct rest as [|i1 [|i0 [|v1 [|v0 tl]]]]; try (now exists EInsufficientBytes).
  unfold parse_single_coil. cbn [rd_u16 R of_option obind]. change (u16_of i1 i0) with (u16 i1 i0). change (u16_of v1 v0) with (u16 v1 v0).
  pose proof (coil_from_u16_echo (u16 v1 v0) x) as Hc.
  destruct (coil_from_u16 (u16 v1 v0)) as [rv|e|]; cbn [obind]; [|destruct Hc as [-> Hc]|destruct Hc].
  - destruct tl as [|t tl]; cbn [ref_details expect_empty rd_is_empty obind]; [|now exists ETrailingBytes].
    rewrite Hc. destruct (N.eqb_spec (u16 i1 i0) i) as [->|]; cbn [andb]; [|now exists EReplyEchoMismatch].
    destruct (u16 v1 v0 =? _); [|now exists EReplyEchoMismatch]. apply eqb_prop in Hc. now subst rv.
  - destruct tl as [|t tl]; cbn [ref_details]; [rewrite Hc, andb_false_r|]; now exists EUnknownCoilState.
Qed.

Lemma single_register_decides i x rest : decides (parse_single_register i x rest) (ref_details (RWriteSingleRegister i x) rest).
Proof.
  destruct rest as [|i1 [|i0 [|v1 [|v0 tl]]]]; try (now exists EInsufficientBytes).
  unfold parse_single_register. cbn [rd_u16 R of_option obind]. change (u16_of i1 i0) with (u16 i1 i0). change (u16_of v1 v0) with (u16 v1 v0).
  destruct tl as [|t tl]; cbn [ref_details expect_empty rd_is_empty obind]; [|now exists ETrailingBytes].
  destruct (N.eqb_spec (u16 i1 i0) i) as [->|]; cbn [andb]; [|now exists EReplyEchoMismatch].
  destruct (N.eqb_spec (u16 v1 v0) x) as [->|]; [reflexivity|now exists EReplyEchoMismatch].
Qed.

(* AddressRange::parse re-validates the echoed range: it accepts the requested one, and whatever
   else it accepts fails the comparison *)
Lemma try_from_echo s n s' n' : range_wf (s, n) ->
  match try_from s' n' with
  | inr r => r = (s', n')
  | inl e => bad_reply (of_range_err e) /\ (s' =? s) && (n' =? n) = false
  end.
Proof.
  unfold range_wf, is_u16. cbn [fst snd]. intros Hwf. destruct (try_from s' n') as [e|r] eqn:T.
  - split.
    + destruct (try_from_err _ _ _ T) as [-> | ->]; exact I.
    + destruct (N.eqb_spec s' s) as [->|]; [|reflexivity]. destruct (N.eqb_spec n' n) as [->|]; [|reflexivity].
      rewrite (proj2 (try_from_total s n ltac:(lia) ltac:(lia))) in T by lia. discriminate.
  - exact (try_from_inr _ _ _ T).
Qed.

Lemma multiple_decides s n rest : range_wf (s, n) ->
  decides (parse_multiple (s, n) rest) (ref_details (RWriteMultipleCoils (s, n) []) rest).
Proof.
  intros Hwf. destruct rest as [|s1 [|s0 [|n1 [|n0 tl]]]]; try (now exists EInsufficientBytes).
  unfold parse_multiple. cbn [rd_u16 R of_option obind fst snd]. change (u16_of s1 s0) with (u16 s1 s0). change (u16_of n1 n0) with (u16 n1 n0).
  pose proof (try_from_echo s n (u16 s1 s0) (u16 n1 n0) Hwf) as Ht.
  destruct (try_from (u16 s1 s0) (u16 n1 n0)) as [e|r]; cbn [of_range obind].
  - destruct Ht as [He Hne]. destruct tl as [|t tl]; cbn [ref_details]; rewrite ?Hne; now exists (of_range_err e).
  - subst r. cbn [fst snd]. destruct ((u16 s1 s0 =? s) && (u16 n1 n0 =? n)) eqn:E; cbn [negb].
    + destruct tl as [|t tl]; cbn [ref_details expect_empty rd_is_empty obind]; [rewrite E|now exists ETrailingBytes].
      apply andb_prop in E as [E1%N.eqb_eq E2%N.eqb_eq]. now rewrite E1, E2.
    + destruct tl as [|t tl]; cbn [ref_details]; rewrite ?E; now exists EReplyEchoMismatch.
Qed.

Lemma details_decides r rest : request_wf r -> decides (details_handle_response r rest) (ref_details r rest).
Proof.
  destruct r as [[s n]|[s n]|[s n]|[s n]|i x|i x|[s n] vs|[s n] vs]; cbn [request_wf]; intros Hwf.
  - exact (bits_decides s n rest Hwf).
  - exact (bits_decides s n rest Hwf).
  - exact (registers_decides s n rest Hwf).
  - exact (registers_decides s n rest Hwf).
  - apply single_coil_decides.
  - apply single_register_decides.
  - exact (multiple_decides s n rest Hwf).
  - exact (multiple_decides s n rest Hwf).
Qed.

Lemma as_error_value r : N.lor (function_of r) error_mask = reply_fc r + 128.
Proof. destruct r; reflexivity. Qed.

(* Request::handle_response in closed form: the genuine reply gives its data, a well-formed
   exception reply its code, anything else an error that is not an exception *)
Theorem handle_response_spec r pdu : request_wf r ->
  match ref_reply r pdu, ref_exception r pdu with
  | Some v, _ => handle_response r pdu = Ok v
  | None, Some c => handle_response r pdu = Err (EException (excode_of_u8 c))
  | None, None => exists e, handle_response r pdu = Err e /\ bad_reply e
  end.
Proof.
  intros Hwf. rewrite ref_reply_details. unfold handle_response.
  destruct pdu as [|f rest]; cbn [rd_u8 ref_exception]; [now exists EInsufficientBytes|].
  unfold get_error_for. rewrite as_error_value, reply_fc_function.
  destruct (N.eqb_spec f (reply_fc r)) as [->|Hf]; cbn [negb].
  - (* the function code matches: the request's parser decides; this is no exception reply *)
    assert (Hx : ref_exception r (reply_fc r :: rest) = None).
    { destruct rest as [|x [|y tl]]; try reflexivity. cbn [ref_exception]. destruct (N.eqb_spec (reply_fc r) (reply_fc r + 128)); [lia|reflexivity]. }
    cbn [ref_exception] in Hx. rewrite Hx. pose proof (details_decides r rest Hwf) as D. now destruct (ref_details r rest).
  - destruct (f =? reply_fc r + 128); destruct rest as [|x [|y tl]]; cbn [rd_u8 rd_is_empty]; try reflexivity; now eexists.
Qed.

Lemma ok_some {A} (x y : A) : Ok (E := req_err) x = Ok y <-> Some x = Some y.
Proof. split; intros [= ->]; reflexivity. Qed.
Lemma err_none {A} (e : req_err) (y : A) : Err e = Ok y <-> None = Some y.
Proof. split; discriminate. Qed.

Theorem ok_iff r pdu v : request_wf r ->
  (handle_response r pdu = Ok v <-> ref_reply r pdu = Some v).
Proof.
  intros Hwf. pose proof (handle_response_spec r pdu Hwf) as S.
  destruct (ref_reply r pdu) as [v'|]; [rewrite S; apply ok_some|].
  destruct (ref_exception r pdu); [rewrite S|destruct S as (e & -> & _)]; apply err_none.
Qed.

Theorem response_total r pdu : request_wf r -> handle_response r pdu <> Panic.
Proof.
  intros Hwf. pose proof (handle_response_spec r pdu Hwf) as S.
  destruct (ref_reply r pdu); [now rewrite S|]. destruct (ref_exception r pdu); [now rewrite S|now destruct S as (e & -> & _)].
Qed.

Lemma indexed_length {A} s (f : nat -> A) n : length (indexed s f n) = N.to_nat n.
Proof. unfold indexed. now rewrite map_length, seq_length. Qed.
Lemma indexed_nth {A} s (f : nat -> A) n k d : (k < N.to_nat n)%nat ->
  nth k (indexed s f n) d = (s + N.of_nat k, f k).
Proof.
  intros H. unfold indexed. rewrite (nth_indep _ d (s + N.of_nat 0, f 0%nat)) by (now rewrite map_length, seq_length).
  rewrite (map_nth (fun k => (s + N.of_nat k, f k)) (seq 0 (N.to_nat n)) 0%nat k). now rewrite seq_nth.
Qed.

Lemma ok_details r pdu v : request_wf r -> handle_response r pdu = Ok v ->
  exists rest, pdu = reply_fc r :: rest /\ ref_details r rest = Some v.
Proof.
  intros Hwf H. apply (ok_iff r pdu v Hwf) in H. rewrite ref_reply_details in H.
  destruct pdu as [|f rest]; [discriminate|]. destruct (N.eqb_spec f (reply_fc r)) as [->|]; [eauto|discriminate].
Qed.

Theorem read_bits_data s n pdu v r : r = RReadCoils (s, n) \/ r = RReadDiscreteInputs (s, n) -> request_wf r ->
  handle_response r pdu = Ok v ->
  exists bc data l, pdu = reply_fc r :: bc :: data /\ len data = bytes_for_bits n /\ v = RespBits l /\
    length l = N.to_nat n /\
    forall k d, (k < N.to_nat n)%nat ->
      nth k l d = (s + N.of_nat k, N.testbit (nth (k / 8)%nat data 0) (N.of_nat (k mod 8)%nat)).
Proof.
  intros Hr Hwf H. destruct (ok_details r pdu v Hwf H) as ([|bc data] & -> & Hd); [destruct Hr as [-> | ->]; discriminate|].
  assert (Hd' : (if len data =? bytes_for_bits n then Some (RespBits (indexed s (bit_at data) n)) else None) = Some v)
    by (destruct Hr as [-> | ->]; exact Hd).
  destruct (N.eqb_spec (len data) (bytes_for_bits n)) as [Hl|]; [injection Hd' as <-|discriminate].
  exists bc, data, (indexed s (bit_at data) n). repeat split; [exact Hl|apply indexed_length|intros k d Hk; now rewrite indexed_nth].
Qed.

Theorem read_registers_data s n pdu v r : r = RReadHoldingRegisters (s, n) \/ r = RReadInputRegisters (s, n) -> request_wf r ->
  handle_response r pdu = Ok v ->
  exists bc data l, pdu = reply_fc r :: bc :: data /\ len data = 2 * n /\ v = RespRegisters l /\
    length l = N.to_nat n /\
    forall k d, (k < N.to_nat n)%nat ->
      nth k l d = (s + N.of_nat k, nth (2 * k)%nat data 0 * 256 + nth (2 * k + 1)%nat data 0).
Proof.
  intros Hr Hwf H. destruct (ok_details r pdu v Hwf H) as ([|bc data] & -> & Hd); [destruct Hr as [-> | ->]; discriminate|].
  assert (Hd' : (if len data =? 2 * n then Some (RespRegisters (indexed s (reg_at data) n)) else None) = Some v)
    by (destruct Hr as [-> | ->]; exact Hd).
  destruct (N.eqb_spec (len data) (2 * n)) as [Hl|]; [injection Hd' as <-|discriminate].
  exists bc, data, (indexed s (reg_at data) n). repeat split; [exact Hl|apply indexed_length|intros k d Hk; now rewrite indexed_nth].
Qed.

Lemma reg_at_flat_map regs : forall k, reg_at (flat_map be regs) k = nth k regs 0.
Proof.
  induction regs as [|v r IH]; intros k.
  - unfold reg_at. cbn [flat_map]. rewrite !nth_overflow by (cbn [length]; lia). lia.
  - cbn [flat_map be app]. destruct k as [|k]; [unfold reg_at; cbn [nth Nat.mul Nat.add]; lia|].
    rewrite reg_at_shift. cbn [nth]. apply IH.
Qed.

