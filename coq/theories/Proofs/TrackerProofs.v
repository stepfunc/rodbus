(* C15: the SessionTracker and the accept loop (Model/Tracker.v). One invariant of the tracker, one of
   the server; what `add` does in closed form; what can end a session; and, on schedules where every
   session end is notified before the next operation, the refinement of the bounded-queue Spec. *)
From Coq Require Import NArith List Lia Arith Sorted.
From Rodbus Require Import Model.Tracker Spec.TrackerSpec.
Import ListNotations.
Local Open Scope N_scope.

Definition ids (l : list (N * bool)) : list N := map fst l.

(* the BTreeMap invariant + the limit. That every id present is below next_id is what makes the
   BTreeMap insert of `add` an append (insert_last): the list is in order of acceptance, so its head,
   the minimum key that `add` evicts, is the session accepted earliest. *)
Definition tracker_inv (t : tracker) : Prop :=
  (1 <= max_sessions t)%nat /\
  (length (sessions t) <= max_sessions t)%nat /\
  StronglySorted N.lt (ids (sessions t)) /\
  Forall (fun i => i < next_id t) (ids (sessions t)).

Lemma ids_app l1 l2 : ids (l1 ++ l2) = ids l1 ++ ids l2.
Proof. apply map_app. Qed.

Lemma tl_ids l : ids (tl l) = tl (ids l).
Proof. destruct l; reflexivity. Qed.

Lemma insert_last id a l : Forall (fun i => i < id) (ids l) -> insert id a l = l ++ [(id, a)].
Proof.
  induction l as [|[j b] r IH]; intros H; [reflexivity|].
  cbn [ids map fst] in H. inversion H as [|? ? Hj Hr]; subst.
  cbn [insert]. destruct (N.ltb_spec id j); [lia|]. destruct (N.eqb_spec id j); [lia|].
  cbn [app]. f_equal. now apply IH.
Qed.

Lemma remove_id_above id l : Forall (N.lt id) (ids l) -> remove_id id l = l.
Proof.
  induction l as [|[j b] r IH]; intros H; [reflexivity|].
  cbn [ids map fst] in H. inversion H as [|? ? Hj Hr]; subst.
  unfold remove_id in *. cbn [filter fst]. destruct (N.eqb_spec j id); [lia|]. cbn [negb]. f_equal. now apply IH.
Qed.

Lemma ids_remove_id id l : ids (remove_id id l) = filter (fun j => negb (j =? id)) (ids l).
Proof.
  induction l as [|[j b] r IH]; [reflexivity|]. unfold remove_id in *. cbn [filter ids map fst].
  destruct (j =? id); cbn [negb]; [exact IH|]. cbn [ids map fst]. f_equal. exact IH.
Qed.

Lemma sorted_filter (f : N -> bool) l : StronglySorted N.lt l -> StronglySorted N.lt (filter f l).
Proof.
  induction 1 as [|a l Hs IH Hall]; [constructor|]. cbn [filter]. destruct (f a); [|exact IH].
  constructor; [exact IH|]. rewrite Forall_forall in *. intros x Hx. apply filter_In in Hx. now apply Hall.
Qed.

Lemma forall_filter {A} (P : A -> Prop) (f : A -> bool) l : Forall P l -> Forall P (filter f l).
Proof.
  rewrite !Forall_forall. intros H x Hx. apply filter_In in Hx. now apply H.
Qed.

Lemma filter_length_le' {A} (f : A -> bool) l : (length (filter f l) <= length l)%nat.
Proof. induction l as [|a r IH]; [apply le_n|]. cbn [filter]. destruct (f a); cbn [length]; lia. Qed.

Lemma ids_mark_dead id l : ids (mark_dead id l) = ids l.
Proof.
  induction l as [|[j b] r IH]; [reflexivity|]. cbn [mark_dead map ids fst] in *.
  destruct (j =? id); cbn [fst]; f_equal; exact IH.
Qed.

Lemma remove_mark_dead id l : remove_id id (mark_dead id l) = remove_id id l.
Proof.
  induction l as [|[j b] r IH]; [reflexivity|]. unfold remove_id, mark_dead in *. cbn [map filter fst].
  destruct (N.eqb_spec j id); cbn [fst].
  - subst. rewrite N.eqb_refl. cbn [negb]. exact IH.
  - destruct (N.eqb_spec j id); [contradiction|]. cbn [negb]. f_equal. exact IH.
Qed.

Lemma sorted_app_last l id : StronglySorted N.lt l -> Forall (fun i => i < id) l -> StronglySorted N.lt (l ++ [id]).
Proof.
  induction 1 as [|a l Hs IH Hall]; intros Hlt; cbn [app]; [repeat constructor|].
  inversion Hlt; subst. constructor; [now apply IH|].
  rewrite Forall_forall in *. intros x Hx. apply in_app_or in Hx. destruct Hx as [Hx|[<-|[]]]; [now apply Hall|assumption].
Qed.

Lemma in_remove_id p id l : In p (remove_id id l) <-> In p l /\ fst p <> id.
Proof.
  unfold remove_id. rewrite filter_In. now destruct (N.eqb_spec (fst p) id); intuition.
Qed.

Lemma in_mark_dead b id l : b <> id -> (In (b, true) (mark_dead id l) <-> In (b, true) l).
Proof.
  intros Hne. unfold mark_dead. rewrite in_map_iff. split.
  - intros ([j c] & Hj & Hin). cbn [fst] in Hj. destruct (N.eqb_spec j id); inversion Hj; subst; assumption.
  - intros Hin. exists (b, true). split; [|assumption]. cbn [fst]. destruct (N.eqb_spec b id); [contradiction|reflexivity].
Qed.

Lemma alive_live s id : alive s id = true <-> In id (live_ids (sessions (trk s))).
Proof.
  unfold alive. rewrite existsb_exists. split.
  - intros (x & Hx & He). apply N.eqb_eq in He. now subst.
  - intros Hin. exists id. split; [exact Hin|apply N.eqb_refl].
Qed.

Lemma alive_iff s id : alive s id = true <-> In (id, true) (sessions (trk s)).
Proof.
  rewrite alive_live. unfold live_ids. rewrite in_map_iff. split.
  - intros ([j b] & Hj & Hin). apply filter_In in Hin. destruct Hin as [Hin Hb]. cbn in *. now subst.
  - intros Hin. exists (id, true). split; [reflexivity|]. apply filter_In. now split.
Qed.

Lemma inv_new m : tracker_inv (tracker_new m).
Proof.
  unfold tracker_inv, tracker_new; cbn. split; [destruct m; lia|]. split; [lia|]. split; constructor.
Qed.

Lemma max_new m : max_sessions (tracker_new m) = Nat.max 1 m.
Proof. destruct m; cbn; lia. Qed.

Lemma inv_empty t : tracker_inv t -> tracker_inv {| max_sessions := max_sessions t; next_id := next_id t; sessions := [] |}.
Proof. intros (H1 & _). unfold tracker_inv; cbn. split; [assumption|]. split; [lia|]. split; constructor. Qed.

Lemma mark_dead_inv t id : tracker_inv t ->
  tracker_inv {| max_sessions := max_sessions t; next_id := next_id t; sessions := mark_dead id (sessions t) |}.
Proof.
  intros (H1 & Hlen & Hs & Hlt). unfold tracker_inv; cbn [max_sessions next_id sessions].
  rewrite ids_mark_dead. unfold mark_dead. rewrite map_length. auto.
Qed.

(* the part of add_spec that needs no invariant *)
Lemma add_id t :
  match add t with
  | None => next_id t = u128_max
  | Some (t', id, _) => next_id t <> u128_max /\ id = next_id t /\ next_id t' = next_id t + 1
  end.
Proof.
  unfold add, get_next_id.
  destruct (if (max_sessions t <=? length (sessions t))%nat then _ else _) as [ss e0].
  cbn [next_id]. destruct (N.eqb_spec (next_id t) u128_max); cbn [next_id]; auto.
Qed.

Lemma add_spec t t' id ev : tracker_inv t -> add t = Some (t', id, ev) ->
  id = next_id t /\
  t' = {| max_sessions := max_sessions t; next_id := next_id t + 1;
          sessions := match ev with Some _ => tl (sessions t) | None => sessions t end ++ [(next_id t, true)] |} /\
  match ev with
  | Some p => length (sessions t) = max_sessions t /\ hd_error (sessions t) = Some p
  | None => (length (sessions t) < max_sessions t)%nat
  end.
Proof.
  intros (H1 & Hlen & Hs & Hlt) H. unfold add, get_next_id in H. cbn [next_id max_sessions sessions] in H.
  destruct (N.eqb_spec (next_id t) u128_max); [destruct (if (_ <=? _)%nat then _ else _); discriminate|].
  destruct (Nat.leb_spec (max_sessions t) (length (sessions t))) as [Hfull|Hfree].
  - destruct (sessions t) as [|[v a] r]; [cbn in Hfull; lia|].
    cbn [ids map fst] in Hs, Hlt. apply StronglySorted_inv in Hs as [_ Hall]. apply Forall_inv_tail in Hlt.
    unfold remove_id in H. cbn [filter fst] in H. rewrite N.eqb_refl in H. cbn [negb] in H.
    fold (remove_id v r) in H. rewrite (remove_id_above v r Hall), (insert_last _ _ r Hlt) in H.
    injection H as <- <- <-. cbn [length tl hd_error] in *. repeat split. lia.
  - rewrite (insert_last _ _ _ Hlt) in H. injection H as <- <- <-. auto.
Qed.

Lemma add_inv t t' id ev : tracker_inv t -> add t = Some (t', id, ev) -> tracker_inv t' /\ max_sessions t' = max_sessions t.
Proof.
  intros Hinv Hadd. destruct (add_spec _ _ _ _ Hinv Hadd) as (_ & -> & Hev). split; [|reflexivity].
  destruct Hinv as (H1 & Hlen & Hs & Hlt).
  assert (Hk : forall kept, (length kept < max_sessions t)%nat -> StronglySorted N.lt (ids kept) ->
            Forall (fun i => i < next_id t) (ids kept) ->
            tracker_inv {| max_sessions := max_sessions t; next_id := next_id t + 1; sessions := kept ++ [(next_id t, true)] |}).
  { intros kept Hkl Hks Hkf. unfold tracker_inv; cbn [max_sessions next_id sessions]. rewrite ids_app, app_length.
    repeat split; [assumption|cbn; lia|now apply sorted_app_last|].
    apply Forall_app. split; [|constructor; [cbn; lia|constructor]].
    eapply Forall_impl; [|exact Hkf]. cbn; intros; lia. }
  destruct ev as [p|]; [|now apply Hk]. destruct Hev as [Hl _].
  destruct (sessions t) as [|q r]; [cbn in *; lia|]. cbn [length ids map tl] in *.
  apply StronglySorted_inv in Hs as [Hs _]. apply Forall_inv_tail in Hlt. apply Hk; [lia|assumption|assumption].
Qed.

Lemma remove_inv t id : tracker_inv t -> tracker_inv (remove t id).
Proof.
  intros (H1 & Hlen & Hs & Hlt). unfold tracker_inv, remove; cbn [max_sessions next_id sessions]. rewrite ids_remove_id.
  repeat split; [assumption| |now apply sorted_filter|now apply forall_filter].
  pose proof (filter_length_le' (fun p => negb (fst p =? id)) (sessions t)). unfold remove_id. lia.
Qed.

Lemma hd_least t v a : tracker_inv t -> hd_error (sessions t) = Some (v, a) -> forall j b, In (j, b) (sessions t) -> v <= j.
Proof.
  intros (_ & _ & Hs & _) E j b Hj. destruct (sessions t) as [|p r]; [discriminate|]. injection E as ->.
  cbn [ids map fst] in Hs. apply StronglySorted_inv in Hs as [_ Hall]. destruct Hj as [Hj|Hj]; [inversion Hj; lia|].
  rewrite Forall_forall in Hall. apply N.lt_le_incl, Hall. exact (in_map fst _ _ Hj).
Qed.

Definition sinv (s : server) : Prop :=
  tracker_inv (trk s) /\ (running s = false -> sessions (trk s) = []).

Lemma sinv_init m : sinv (init m).
Proof. split; [apply inv_new|discriminate]. Qed.

Lemma alive_running s id : sinv s -> alive s id = true -> running s = true.
Proof.
  intros [_ Hstop] Ha. destruct (running s); [reflexivity|]. rewrite alive_iff, (Hstop eq_refl) in Ha. destruct Ha.
Qed.

Lemma step_stopped s e : running s = false -> step s e = Some (s, []).
Proof. intros Hr. unfold step. now rewrite Hr. Qed.

Lemma step_accept s s' o : sinv s -> running s = true -> step s (Accept true) = Some (s', o) ->
  exists ev,
    s' = {| trk := {| max_sessions := max_sessions (trk s); next_id := next_id (trk s) + 1;
                      sessions := match ev with Some _ => tl (sessions (trk s)) | None => sessions (trk s) end
                                  ++ [(next_id (trk s), true)] |};
            running := true; store := store s |} /\
    o = closed_of ev ++ [Spawned (next_id (trk s))] /\
    match ev with
    | Some p => length (sessions (trk s)) = max_sessions (trk s) /\ hd_error (sessions (trk s)) = Some p
    | None => (length (sessions (trk s)) < max_sessions (trk s))%nat
    end.
Proof.
  intros [Hinv _] Hr H. unfold step in H. rewrite Hr in H. cbn [negb] in H.
  destruct (add (trk s)) as [[[t' id] ev]|] eqn:Hadd; [|discriminate]. injection H as <- <-.
  destruct (add_spec _ _ _ _ Hinv Hadd) as (-> & -> & Hev). now exists ev.
Qed.

Lemma step_inv s e s' o : sinv s -> step s e = Some (s', o) ->
  sinv s' /\ max_sessions (trk s') = max_sessions (trk s).
Proof.
  intros [Hinv Hstop] H.
  assert (Hsame : sinv s /\ max_sessions (trk s) = max_sessions (trk s)) by (split; [split; assumption|reflexivity]).
  unfold step in H. destruct (running s) eqn:Hr; cbn [negb] in H; [|injection H as <- <-; exact Hsame].
  destruct e as [[|]| id | | | | id | id v].
  - destruct (add (trk s)) as [[[t' id] ev]|] eqn:Ha; [|discriminate]. injection H as <- <-.
    destruct (add_inv _ _ _ _ Hinv Ha) as [Hi Hm]. split; [split; [exact Hi|discriminate]|exact Hm].
  - injection H as <- <-. exact Hsame.
  - injection H as <- <-. split; [split; [now apply remove_inv|discriminate]|reflexivity].
  - injection H as <- <-. exact Hsame.
  - injection H as <- <-. split; [split; [now apply inv_empty|reflexivity]|reflexivity].
  - injection H as <- <-. split; [split; [now apply inv_empty|reflexivity]|reflexivity].
  - injection H as <- <-. split; [split; [now apply mark_dead_inv|cbn; congruence]|reflexivity].
  - destruct (alive s id); injection H as <- <-; [|exact Hsame]. split; [split; [exact Hinv|cbn; congruence]|reflexivity].
Qed.

(* The tracker model, the front-end and the busy server each run a step function over a list of
   events and concatenate the outputs. An invariant of the steps, which may speak of the events
   processed so far, holds after such a run (the two equations hold by computation). *)
Lemma runs_invariant {X E O} (xstep : X -> E -> option (X * list O)) (xrun : X -> list E -> option (X * list O)) :
  (forall x, xrun x [] = Some (x, [])) ->
  (forall x e r, xrun x (e :: r) = match xstep x e with
                                   | None => None
                                   | Some (x1, o1) => match xrun x1 r with None => None | Some (x2, o2) => Some (x2, o1 ++ o2) end
                                   end) ->
  forall P : list E -> X -> Prop,
  (forall hist x e x' o, P hist x -> xstep x e = Some (x', o) -> P (hist ++ [e]) x') ->
  forall evs hist x x' o, P hist x -> xrun x evs = Some (x', o) -> P (hist ++ evs) x'.
Proof.
  intros Hnil Hcons P Hstep. induction evs as [|e r IH]; intros hist x x' o HP Hr.
  - rewrite Hnil in Hr. injection Hr as <- _. now rewrite app_nil_r.
  - rewrite Hcons in Hr. destruct (xstep x e) as [[x1 o1]|] eqn:E1; [|discriminate].
    destruct (xrun x1 r) as [[x2 o2]|] eqn:E2; [|discriminate]. injection Hr as <- _.
    replace (hist ++ e :: r) with ((hist ++ [e]) ++ r) by now rewrite <- app_assoc.
    exact (IH _ _ _ _ (Hstep _ _ _ _ _ HP E1) E2).
Qed.

(* the same systems, one step at a time: how a successful run of e :: r came about *)
Lemma runs_cons {X E O} (xstep : X -> E -> option (X * list O)) (xrun : X -> list E -> option (X * list O)) :
  (forall x e r, xrun x (e :: r) = match xstep x e with
                                   | None => None
                                   | Some (x1, o1) => match xrun x1 r with None => None | Some (x2, o2) => Some (x2, o1 ++ o2) end
                                   end) ->
  forall x e r x' o, xrun x (e :: r) = Some (x', o) ->
  exists x1 o1 o2, xstep x e = Some (x1, o1) /\ xrun x1 r = Some (x', o2) /\ o = o1 ++ o2.
Proof.
  intros Hcons x e r x' o H. rewrite Hcons in H. destruct (xstep x e) as [[x1 o1]|] eqn:E1; [|discriminate].
  destruct (xrun x1 r) as [[x2 o2]|] eqn:E2; [|discriminate]. injection H as <- <-. now exists x1, o1, o2.
Qed.

Definition run_cons := runs_cons step run (fun _ _ _ => eq_refl).

Lemma run_inv evs s s' o : sinv s -> run s evs = Some (s', o) ->
  sinv s' /\ max_sessions (trk s') = max_sessions (trk s).
Proof.
  intros Hs H. refine (runs_invariant step run (fun _ => eq_refl) (fun _ _ _ => eq_refl)
                         (fun _ s1 => sinv s1 /\ max_sessions (trk s1) = max_sessions (trk s)) _ evs [] s s' o _ H); [|now split].
  intros _ s1 e s2 o1 [Hs1 Hm1] E. destruct (step_inv _ _ _ _ Hs1 E) as [Hs2 Hm2]. split; [assumption|congruence].
Qed.

Lemma run_init_inv m evs s o : run (init m) evs = Some (s, o) -> sinv s /\ max_sessions (trk s) = Nat.max 1 m.
Proof. intros H. destruct (run_inv _ _ _ _ (sinv_init m) H) as [Hs Hm]. now rewrite <- (max_new m). Qed.

(* used as C15_bound *)
Lemma bound m evs s o : run (init m) evs = Some (s, o) ->
  (length (sessions (trk s)) <= Nat.max 1 m)%nat /\ (length (live_ids (sessions (trk s))) <= Nat.max 1 m)%nat.
Proof.
  intros H. destruct (run_init_inv _ _ _ _ H) as [[(_ & Hlen & _) _] Hm].
  pose proof (filter_length_le' snd (sessions (trk s))). unfold live_ids. rewrite map_length. lia.
Qed.

(* how many connections are accepted (Accept true processed while the server runs) along evs *)
Fixpoint accepts_processed (s : server) (evs : list event) : N :=
  match evs with
  | [] => 0
  | e :: r => match step s e with
              | None => 0
              | Some (s1, _) => (match e with Accept true => if running s then 1 else 0 | _ => 0 end) + accepts_processed s1 r
              end
  end.

Lemma step_counter s e :
  match step s e with
  | None => next_id (trk s) = u128_max
  | Some (s', _) => next_id (trk s') = next_id (trk s) + match e with Accept true => if running s then 1 else 0 | _ => 0 end
  end.
Proof.
  unfold step. destruct (running s); cbn [negb]; [|destruct e as [[|]| | | | | |]; symmetry; apply N.add_0_r].
  destruct e as [[|]| id | | | | id | id v]; try (symmetry; apply N.add_0_r).
  - pose proof (add_id (trk s)) as Hid. destruct (add (trk s)) as [[[t' id] ev]|]; [apply Hid|exact Hid].
  - destruct (alive s id); symmetry; apply N.add_0_r.
Qed.

Lemma run_next_id evs : forall s s' o, run s evs = Some (s', o) ->
  next_id (trk s') = next_id (trk s) + accepts_processed s evs.
Proof.
  induction evs as [|e r IH]; intros s s' o H; cbn [accepts_processed].
  - injection H as <- <-. lia.
  - destruct (run_cons _ _ _ _ _ H) as (s1 & o1 & o2 & E1 & E2 & _).
    pose proof (step_counter s e) as Hc. rewrite E1 in Hc |- *. rewrite (IH _ _ _ E2), Hc. lia.
Qed.

(* used as C15_oldest: the state in which an Accept arrives is any reachable one *)
Lemma oldest m evs s o t' id v a :
  run (init m) evs = Some (s, o) -> add (trk s) = Some (t', id, Some (v, a)) ->
  length (sessions (trk s)) = Nat.max 1 m /\
  In (v, a) (sessions (trk s)) /\
  (forall j b, In (j, b) (sessions (trk s)) -> v <= j) /\
  (forall j b, In (j, b) (sessions (trk s)) -> j < id) /\
  sessions t' = tl (sessions (trk s)) ++ [(id, true)] /\
  ~ In v (ids (sessions t')) /\
  id = accepts_processed (init m) evs.
Proof.
  intros Hrun Hadd. destruct (run_init_inv _ _ _ _ Hrun) as [[Hinv _] Hm].
  destruct (add_spec _ _ _ _ Hinv Hadd) as (-> & -> & Hl & Hhd). cbn [sessions].
  pose proof (hd_least _ _ _ Hinv Hhd) as Hmin. destruct Hinv as (_ & _ & Hs & Hlt).
  destruct (sessions (trk s)) as [|p r]; [discriminate|]. injection Hhd as ->. cbn [tl ids map fst] in *.
  apply StronglySorted_inv in Hs as [_ Hall]. rewrite Forall_forall in Hall, Hlt.
  split; [lia|]. split; [now left|]. split; [exact Hmin|]. split.
  { intros j b Hj. apply Hlt. exact (in_map fst _ _ Hj). }
  split; [reflexivity|]. split.
  - rewrite ids_app. intros Hin. apply in_app_or in Hin. destruct Hin as [Hin|[Hin|[]]].
    + specialize (Hall _ Hin). lia.
    + cbn in Hin. specialize (Hlt v (or_introl eq_refl)). lia.
  - rewrite (run_next_id _ _ _ _ Hrun). cbn. lia.
Qed.

(* used as C15_no_panic: the id counter cannot overflow in fewer than 2^128 events *)
Lemma run_total evs : forall s, next_id (trk s) + N.of_nat (length evs) <= u128_max -> run s evs <> None.
Proof.
  induction evs as [|e r IH]; intros s H; cbn [run]; [discriminate|].
  cbn [length] in H. pose proof (step_counter s e) as Hc. destruct (step s e) as [[s1 o1]|]; [|lia].
  specialize (IH s1). destruct (run s1 r) as [[s2 o2]|]; [discriminate|]. exfalso. apply IH; [|reflexivity].
  destruct e as [[|]| | | | | |]; try lia. destruct (running s); lia.
Qed.

Lemma no_panic m evs : N.of_nat (length evs) <= u128_max -> run (init m) evs <> None.
Proof. intros H. apply run_total. change (next_id (trk (init m))) with 0. lia. Qed.

Lemma stopped_stays s evs : running s = false -> run s evs = Some (s, []).
Proof.
  intros Hr. induction evs as [|e r IH]; [reflexivity|]. cbn [run]. now rewrite (step_stopped s e Hr), IH.
Qed.

(* used as C15_shutdown *)
Lemma shutdown_closes_all s e s' o : running s = true -> (e = Shutdown \/ e = HandleDropped) -> step s e = Some (s', o) ->
  running s' = false /\ sessions (trk s') = [] /\ (forall id, alive s' id = false) /\
  (forall id, alive s id = true -> In (Closed id) o) /\ In ListenerClosed o /\
  (forall evs, run s' evs = Some (s', [])).
Proof.
  intros Hr He H. assert (H' : step s Shutdown = Some (s', o)) by (destruct He as [-> | ->]; exact H).
  unfold step in H'. rewrite Hr in H'. injection H' as <- <-. cbn [running trk sessions]. repeat split; try reflexivity.
  - intros id Ha. apply in_or_app. left. now apply in_map, alive_live.
  - apply in_or_app. right. now left.
  - intros evs. now apply stopped_stays.
Qed.

Lemma after_stop m evs s o : run (init m) evs = Some (s, o) -> running s = false ->
  sessions (trk s) = [] /\ forall id, alive s id = false.
Proof.
  intros H Hr. destruct (run_init_inv _ _ _ _ H) as [[_ Hstop] _]. specialize (Hstop Hr).
  split; [exact Hstop|]. intros id. unfold alive. now rewrite Hstop.
Qed.

(* a running session b stops being alive only by its own end, or because the server drops its
   sender - and then the output says Closed b *)
Lemma step_ends s e s' o b : sinv s -> step s e = Some (s', o) -> alive s b = true -> alive s' b = false ->
  e = PeerGone b \/
  In (Closed b) o /\
  (e = SessionEnded b \/ e = Shutdown \/ e = HandleDropped \/
   e = Accept true /\ length (sessions (trk s)) = max_sessions (trk s) /\ hd_error (sessions (trk s)) = Some (b, true)).
Proof.
  intros Hs H Ha Hd. pose proof (alive_running _ _ Hs Ha) as Hr. pose proof (proj1 (alive_iff _ _) Ha) as Hin.
  assert (Hgone : In (b, true) (sessions (trk s')) -> False) by (intros X; apply alive_iff in X; congruence).
  destruct e as [[|]| id | | | | id | id v].
  1:{ (* evicted iff it is the first entry of a full tracker *)
    destruct (step_accept _ _ _ Hs Hr H) as (ev & -> & -> & Hev). cbn [trk sessions] in Hgone.
    destruct ev as [p|]; [|destruct Hgone; apply in_or_app; now left]. destruct Hev as [Hl Hhd].
    destruct (sessions (trk s)) as [|q r]; [discriminate|]. injection Hhd as ->. cbn [tl] in Hgone.
    destruct Hin as [->|Hin]; [|destruct Hgone; apply in_or_app; now left]. right. split; [now left|]. do 3 right. auto. }
  all: unfold step in H; rewrite Hr in H; cbn [negb] in H.
  - injection H as <- <-. now destruct Hgone.
  - injection H as <- <-. destruct (N.eq_dec b id) as [->|Hne].
    + right. split; [|auto]. rewrite Ha. now left.
    + destruct Hgone. apply in_remove_id. split; [exact Hin|exact Hne].
  - injection H as <- <-. now destruct Hgone.
  - injection H as <- <-. right. split; [|auto]. apply in_or_app. left. apply in_map, alive_live, Ha.
  - injection H as <- <-. right. split; [|auto]. apply in_or_app. left. apply in_map, alive_live, Ha.
  - injection H as <- <-. destruct (N.eq_dec id b) as [->|Hne]; [now left|].
    destruct Hgone. apply in_mark_dead; [congruence|exact Hin].
  - destruct (alive s id); injection H as <- <-; now destruct Hgone.
Qed.

(* the only events that end session b: its own end, the notification of its end, a stop of the
   server, or an Accept at the limit while b is the oldest entry *)
Lemma isolation m evs s o e s' o' b :
  run (init m) evs = Some (s, o) -> step s e = Some (s', o') ->
  alive s b = true -> alive s' b = false ->
  e = PeerGone b \/ e = SessionEnded b \/ e = Shutdown \/ e = HandleDropped \/
  (e = Accept true /\ length (sessions (trk s)) = Nat.max 1 m /\ forall j c, In (j, c) (sessions (trk s)) -> b <= j).
Proof.
  intros Hrun Hstep Ha Hd. destruct (run_init_inv _ _ _ _ Hrun) as [Hs Hm].
  destruct (step_ends _ _ _ _ _ Hs Hstep Ha Hd) as [->|[_ [->|[->|[->|(-> & Hl & Hhd)]]]]]; auto.
  do 4 right. split; [reflexivity|]. split; [congruence|]. exact (hd_least _ _ _ (proj1 Hs) Hhd).
Qed.

(* read backwards: a Spawned or HandlerCall output tells which event was processed *)
Lemma step_output s e s' o x : step s e = Some (s', o) -> In x o ->
  match x with
  | Spawned id => e = Accept true /\ running s = true /\ id = next_id (trk s)
  | HandlerCall id v => e = Request id v
  | _ => True
  end.
Proof.
  intros H Hin. unfold step in H. destruct (running s); cbn [negb] in H; [|injection H as <- <-; destruct Hin].
  destruct e as [[|]| id | | | | id | id v].
  - pose proof (add_id (trk s)) as Hid. destruct (add (trk s)) as [[[t' id] ev]|]; [|discriminate]. injection H as <- <-.
    apply in_app_or in Hin. destruct Hin as [Hin|[<-|[]]]; [|tauto].
    destruct ev as [[? [|]]|]; cbn in Hin; try contradiction. now destruct Hin as [<-|[]].
  - injection H as <- <-. now destruct Hin as [<-|[]].
  - injection H as <- <-. destruct (alive s id); [now destruct Hin as [<-|[]]|destruct Hin].
  - injection H as <- <-. apply in_map_iff in Hin. now destruct Hin as (? & <- & _).
  - injection H as <- <-. apply in_app_or in Hin. destruct Hin as [Hin|[<-|[]]]; [|exact I].
    apply in_map_iff in Hin. now destruct Hin as (? & <- & _).
  - injection H as <- <-. apply in_app_or in Hin. destruct Hin as [Hin|[<-|[]]]; [|exact I].
    apply in_map_iff in Hin. now destruct Hin as (? & <- & _).
  - injection H as <- <-. destruct Hin.
  - destruct (alive s id); injection H as <- <-; [now destruct Hin as [<-|[]]|destruct Hin].
Qed.

(* a connection arriving while the server runs is always accepted - also at the limit *)
Lemma accept_spawns m evs s o s' o' : run (init m) evs = Some (s, o) -> running s = true ->
  step s (Accept true) = Some (s', o') ->
  In (Spawned (next_id (trk s))) o' /\ alive s' (next_id (trk s)) = true /\ running s' = true.
Proof.
  intros Hrun Hr Hstep. destruct (run_init_inv _ _ _ _ Hrun) as [Hs _].
  destruct (step_accept _ _ _ Hs Hr Hstep) as (ev & -> & -> & _).
  split; [apply in_or_app; right; now left|]. split; [|reflexivity].
  apply alive_iff. cbn. apply in_or_app. right. now left.
Qed.

(* every session running at the start of a run or spawned during it is, at the end, still running,
   or has been closed by the server (its sender dropped), or has ended on its own *)
Lemma run_accounts evs : forall s s' o id, sinv s -> run s evs = Some (s', o) ->
  alive s id = true \/ In (Spawned id) o -> alive s' id = true \/ In (Closed id) o \/ In (PeerGone id) evs.
Proof.
  induction evs as [|e r IH]; intros s s' o id Hs H Hid.
  - injection H as <- <-. destruct Hid as [Ha|[]]. now left.
  - destruct (run_cons _ _ _ _ _ H) as (s1 & o1 & o2 & E1 & E2 & ->).
    assert (Hmid : (alive s1 id = true \/ In (Spawned id) o2) \/ In (Closed id) o1 \/ e = PeerGone id).
    { destruct Hid as [Ha|Hsp].
      - destruct (alive s1 id) eqn:Ha1; [auto|]. destruct (step_ends _ _ _ _ _ Hs E1 Ha Ha1) as [->|[Hc _]]; auto.
      - apply in_app_or in Hsp. destruct Hsp as [Hsp|Hsp]; [|auto]. left. left.
        destruct (step_output _ _ _ _ _ E1 Hsp) as (-> & Hr & ->).
        destruct (step_accept _ _ _ Hs Hr E1) as (ev & -> & _). apply alive_iff. cbn. apply in_or_app. right. now left. }
    rewrite in_app_iff. cbn [In]. destruct Hmid as [Hm|[Hc|He]]; [|tauto|tauto].
    destruct (IH _ _ _ id (proj1 (step_inv _ _ _ _ Hs E1)) E2 Hm) as [?|[?|?]]; auto.
Qed.

Definition all_alive (l : list (N * bool)) : Prop := Forall (fun p => snd p = true) l.

Lemma live_ids_all_alive l : all_alive l -> live_ids l = ids l.
Proof.
  unfold all_alive, live_ids, ids. induction 1 as [|[j b] r Hb _ IH]; [reflexivity|]. cbn in Hb. subst. cbn [filter snd map fst]. now f_equal.
Qed.

(* the Spec state a server stands for, and the states in which it does: between operations of a
   prompt schedule no ended session is waiting for its notification (`all_alive`; the schedule of
   C15_stale_slot_observation is one where that fails, and there the Spec is not refined) *)
Definition tracker_abs (s : server) : sstate :=
  {| served := ids (sessions (trk s)); accepted := next_id (trk s); up := running s; value := store s |}.

Definition prompt (m : nat) (s : server) : Prop :=
  sinv s /\ max_sessions (trk s) = Nat.max 1 m /\ all_alive (sessions (trk s)).

Lemma prompt_init m : prompt m (init m).
Proof. split; [apply sinv_init|]. split; [apply max_new|constructor]. Qed.

Lemma prompt_alive m s k : prompt m s -> alive s k = existsb (N.eqb k) (served (tracker_abs s)).
Proof. intros (_ & _ & Hal). unfold alive. now rewrite (live_ids_all_alive _ Hal). Qed.

Lemma prompt_view m s : prompt m s -> view s = sview (tracker_abs s).
Proof. intros (_ & _ & Hal). unfold view, sview. now rewrite (live_ids_all_alive _ Hal). Qed.

Lemma accept_refines m s s' o : prompt m s -> running s = true -> run s [Accept true] = Some (s', o) ->
  all_alive (sessions (trk s')) /\ tracker_abs s' = sstep m (tracker_abs s) Connect.
Proof.
  intros (Hs & Hmax & Hal) Hr H. cbn [run] in H. destruct (step s (Accept true)) as [[s1 o1]|] eqn:E; [|discriminate].
  injection H as <- _. destruct (step_accept _ _ _ Hs Hr E) as (ev & -> & _ & Hev).
  unfold sstep, tracker_abs, capacity. cbn [trk sessions next_id running store up served accepted value]. rewrite Hr. cbn [negb].
  rewrite ids_app, <- Hmax. replace (length (ids (sessions (trk s)))) with (length (sessions (trk s))) by (symmetry; apply map_length).
  split.
  - apply Forall_app. split; [|repeat constructor]. destruct ev; [|exact Hal]. destruct Hal; [constructor|assumption].
  - f_equal. f_equal. destruct ev as [p|].
    + destruct Hev as [-> _]. rewrite Nat.leb_refl. apply tl_ids.
    + apply Nat.leb_gt in Hev. now rewrite Hev.
Qed.

(* a session ends on its own and the server processes the notice *)
Lemma run_close s k : running s = true ->
  exists o, run s [PeerGone k; SessionEnded k] = Some ({| trk := remove (trk s) k; running := true; store := store s |}, o).
Proof.
  intros Hr. cbn [run]. unfold step. rewrite Hr. cbn [negb with_sessions running]. rewrite Hr. cbn [negb].
  unfold remove, with_sessions. cbn [trk max_sessions next_id sessions store]. rewrite remove_mark_dead. eauto.
Qed.

(* a session ends and the server is told at once: its entry is gone before the next operation *)
Lemma close_refines m s k s' o : prompt m s -> running s = true -> run s [PeerGone k; SessionEnded k] = Some (s', o) ->
  all_alive (sessions (trk s')) /\ tracker_abs s' = sstep m (tracker_abs s) (ClientClose k).
Proof.
  intros (Hs & Hmax & Hal) Hr H. destruct (run_close s k Hr) as (o' & R). rewrite R in H. injection H as <- _.
  unfold sstep, tracker_abs, remove. cbn [trk sessions next_id max_sessions running store up served accepted value].
  rewrite Hr. cbn [negb]. split; [now apply forall_filter|]. now rewrite ids_remove_id.
Qed.

Lemma step_refines m s o s' outs : prompt m s -> run s (expand o) = Some (s', outs) ->
  prompt m s' /\ tracker_abs s' = sstep m (tracker_abs s) o.
Proof.
  intros Hp H. pose proof Hp as (Hs & Hmax & Hal).
  destruct (run_inv _ _ _ _ Hs H) as [Hs' Hmax']. rewrite Hmax in Hmax'.
  enough (all_alive (sessions (trk s')) /\ tracker_abs s' = sstep m (tracker_abs s) o) by (unfold prompt; tauto).
  destruct (running s) eqn:Hr.
  2:{ rewrite (stopped_stays s (expand o) Hr) in H. injection H as <- _. unfold sstep. cbn [tracker_abs up]. rewrite Hr. auto. }
  destruct o as [| |k|k|k v|k|k| | | |]; cbn [expand] in H.
  1,2: exact (accept_refines _ _ _ _ Hp Hr H).
  1,2: exact (close_refines _ _ _ _ _ Hp Hr H).
  all: unfold sstep; cbn [tracker_abs up served accepted value]; rewrite Hr; cbn [negb].
  all: cbn [run] in H; unfold step in H; rewrite ?Hr in H; cbn [negb] in H.
  - (* Req *)
    rewrite (prompt_alive _ _ k Hp) in H. cbn [negb tracker_abs served] in H.
    destruct (existsb (N.eqb k) (ids (sessions (trk s)))); injection H as <- _; auto.
  - (* Flood *) injection H as <- _. auto.
  - (* Park *) injection H as <- _. auto.
  - (* Release *) injection H as <- _. auto.
  - (* SetDecode *) injection H as <- _. auto.
  - (* Stop *) injection H as <- _. split; [constructor|reflexivity].
  - (* DropHandle *) injection H as <- _. split; [constructor|reflexivity].
Qed.

Lemma trace_refines m ops : forall s t, prompt m s -> trace s ops = Some t -> t = strace m (tracker_abs s) ops.
Proof.
  induction ops as [|o r IH]; intros s t Hp H; cbn [trace strace] in *; [now inversion H|].
  destruct (run s (expand o)) as [[s1 o1]|] eqn:E1; [|discriminate].
  destruct (trace s1 r) as [t1|] eqn:E2; [|discriminate]. injection H as <-.
  destruct (step_refines _ _ _ _ _ Hp E1) as [Hp1 <-]. rewrite (prompt_view _ _ Hp1). f_equal. now apply IH.
Qed.

Lemma tracker_run_app s a b : run s (a ++ b) =
  match run s a with
  | None => None
  | Some (s1, o1) => match run s1 b with None => None | Some (s2, o2) => Some (s2, o1 ++ o2) end
  end.
Proof.
  revert s. induction a as [|e r IH]; intros s; cbn [app run].
  - destruct (run s b) as [[s2 o2]|]; reflexivity.
  - destruct (step s e) as [[s1 o1]|]; [|reflexivity]. rewrite IH.
    destruct (run s1 r) as [[s2 o2]|]; [|reflexivity]. destruct (run s2 b) as [[s3 o3]|]; [|reflexivity].
    now rewrite app_assoc.
Qed.
