(* The session with its command channel: decode level changes are unobservable, Shutdown / a closed
   channel end the session at once (also in the middle of a blocked reply write), and the whole
   loop refines the same loop over the reference server. *)
From Coq Require Import NArith List.
From Rodbus Require Import Base.Outcome Base.ServerTypes Base.ServerRun Model.Server Model.ServerRun Spec.Modbus
  Proofs.ServerProofs.
Import ListNotations.
Local Open Scope N_scope.

Section Run.
Context {St E : Type}.
Variable hf : ucfg St -> frame -> outcome E (list N) * ucfg St * list event.

Lemma unobservable : forall evs units d d' m,
  observable (run hf units d m evs) = observable (run hf units d' m (strip evs)).
Proof.
  induction evs as [|ev rest IH]; intros units d d' m; [destruct m; reflexivity|].
  destruct ev as [f| |[lvl|]| | |]; cbn [strip run].
  - destruct m as [|r].
    + destruct (hf units f) as [[[bytes|e|] units'] lg]; try reflexivity.
      specialize (IH units' d d' (match bytes with [] => MIdle | _ => MWriting bytes end)).
      destruct (run hf units' d _ rest) as [[[[ws u] lg'] dd] e].
      destruct (run hf units' d' _ (strip rest)) as [[[[ws2 u2] lg2] dd2] e2].
      cbn [observable] in *. inversion IH; subst. reflexivity.
    + apply IH.
  - destruct m as [|r]; [reflexivity|apply IH].
  - apply IH.
  - reflexivity.
  - reflexivity.
  - destruct m as [|r]; [apply IH|].
    specialize (IH units d d' MIdle).
    destruct (run hf units d MIdle rest) as [[[[ws u] lg'] dd] e].
    destruct (run hf units d' MIdle (strip rest)) as [[[[ws2 u2] lg2] dd2] e2].
    cbn [observable] in *. inversion IH; subst. reflexivity.
  - destruct m as [|r]; [apply IH|reflexivity].
Qed.

Lemma run_insert_unobservable pre post lvl units d m :
  observable (run hf units d m (pre ++ ECommand (ChangeDecoding lvl) :: post)) = observable (run hf units d m (pre ++ post)).
Proof.
  rewrite (unobservable (pre ++ ECommand (ChangeDecoding lvl) :: post) units d d m).
  rewrite (unobservable (pre ++ post) units d d m).
  f_equal. f_equal. clear. induction pre as [|ev pre IH]; [reflexivity|].
  destruct ev as [f| |[l|]| | |]; cbn [app strip]; rewrite ?IH; reflexivity.
Qed.

Definition close (x : list (list N) * ucfg St * list event * N * run_end E) :=
  let '(ws, u, lg, d, e) := x in
  (ws, u, lg, d, match e with ROpen | RBlocked _ => RShutdown | other => other end).

Definition ends (ev : sevent) : Prop := ev = ECommand Shutdown \/ ev = EClosed.

(* whatever follows a Shutdown or the closing of the channel is irrelevant: no further frame is
   handled, nothing further is written, a reply whose write is pending is dropped *)
Lemma run_shutdown_ends ev post : ends ev -> forall pre units d m,
  run hf units d m (pre ++ ev :: post) = close (run hf units d m pre).
Proof.
  intros Hev. induction pre as [|e0 pre IH]; intros units d m.
  - cbn [app]. destruct Hev as [-> | ->]; destruct m; reflexivity.
  - cbn [app]. destruct e0 as [f| |[lvl|]| | |]; cbn [run].
    + destruct m as [|r]; [|apply IH].
      destruct (hf units f) as [[[bytes|e|] units'] lg]; try reflexivity.
      rewrite IH. destruct (run hf units' d _ pre) as [[[[ws u] lg'] dd] e]. reflexivity.
    + destruct m as [|r]; [reflexivity|apply IH].
    + apply IH.
    + reflexivity.
    + reflexivity.
    + destruct m as [|r]; [apply IH|]. rewrite IH.
      destruct (run hf units d MIdle pre) as [[[[ws u] lg'] dd] e]. reflexivity.
    + destruct m as [|r]; [apply IH|reflexivity].
Qed.

Definition changes (levels : list N) : list sevent := map (fun x => ECommand (ChangeDecoding x)) levels.

Lemma last_cons_default {A} : forall (l : list A) a d d', last (a :: l) d = last (a :: l) d'.
Proof. induction l as [|b l IH]; intros a d d'; [reflexivity|]. change (last (b :: l) d = last (b :: l) d'). apply IH. Qed.

Lemma run_changes levels : forall units d m rest,
  run hf units d m (changes levels ++ rest) = run hf units (last levels d) m rest.
Proof.
  induction levels as [|x levels IH]; intros units d m rest; [reflexivity|].
  cbn [changes map app run]. fold (changes levels). rewrite IH.
  destruct levels as [|n levels]; [reflexivity|]. rewrite (last_cons_default levels n x d). reflexivity.
Qed.

Lemma run_write_cut units d f b bs units' lg levels ev post : hf units f = (Ok (b :: bs), units', lg) -> ends ev ->
  run hf units d MIdle (EFrame f :: changes levels ++ ev :: post) = ([], units', lg, last levels d, RShutdown).
Proof.
  intros Hf Hev. cbn [run]. rewrite Hf. rewrite run_changes.
  destruct Hev as [-> | ->]; cbn [run]; rewrite app_nil_r; reflexivity.
Qed.

Lemma run_write_failed units d f b bs units' lg levels post : hf units f = (Ok (b :: bs), units', lg) ->
  run hf units d MIdle (EFrame f :: changes levels ++ EWriteFailed :: post) = ([], units', lg, last levels d, RIo).
Proof.
  intros Hf. cbn [run]. rewrite Hf. rewrite run_changes. cbn [run]. rewrite app_nil_r. reflexivity.
Qed.

Lemma run_write_done units d f b bs units' lg levels rest : hf units f = (Ok (b :: bs), units', lg) ->
  run hf units d MIdle (EFrame f :: changes levels ++ EWriteDone :: rest) =
    (let '(ws, u, lg', dd, e) := run hf units' (last levels d) MIdle rest in ((b :: bs) :: ws, u, lg ++ lg', dd, e)).
Proof.
  intros Hf. cbn [run]. rewrite Hf. rewrite run_changes. cbn [run].
  destruct (run hf units' (last levels d) MIdle rest) as [[[[ws u] lg'] dd] e]. reflexivity.
Qed.
End Run.

Lemma run_ext {St E} (hf hf' : ucfg St -> frame -> outcome E (list N) * ucfg St * list event) (P : frame -> Prop) :
  (forall u f, P f -> hf u f = hf' u f) ->
  forall evs units d m, Forall (fun ev => match ev with EFrame f => P f | _ => True end) evs ->
  run hf units d m evs = run hf' units d m evs.
Proof.
  intros Hagree. induction evs as [|ev rest IH]; intros units d m Hall; [reflexivity|].
  inversion Hall as [|? ? Hev Hrest]; subst. destruct ev as [f| |[lvl|]| | |]; cbn [run]; try reflexivity.
  - destruct m as [|r]; [|apply IH; assumption]. rewrite <- Hagree by assumption.
    destruct (hf units f) as [[[bytes|e|] units'] lg]; try reflexivity. rewrite IH by assumption. reflexivity.
  - destruct m as [|r]; [reflexivity|apply IH; assumption].
  - apply IH; assumption.
  - destruct m as [|r]; [apply IH; assumption|]. rewrite IH by assumption. reflexivity.
  - destruct m as [|r]; [apply IH; assumption|reflexivity].
Qed.

Section Model.
Context {St : Type}.
Variable H : handler St.

Definition events_ok (l : link) (evs : list sevent) : Prop :=
  Forall (fun ev => match ev with EFrame f => frame_ok l f | _ => True end) evs.

Theorem session_run_refines l a units d evs : events_ok l evs ->
  session_run H l a units d evs = run (fun u f => ok_result (ref_handle_frame H l a u f)) units d MIdle evs.
Proof.
  intros Hok. unfold session_run. apply (run_ext _ _ (frame_ok l)); [|exact Hok].
  intros u f Hf. rewrite handle_frame_refines by assumption.
  destruct (ref_handle_frame H l a u f) as [[x y] z]. reflexivity.
Qed.

Definition no_failure (e : run_end serr) : Prop := match e with RError _ | RPanic => False | _ => True end.

(* a frame handler that cannot fail: the run ends by its events, never by an error *)
Lemma ok_run_end (g : ucfg St -> frame -> list N * ucfg St * list event) : forall evs units d m,
  no_failure (snd (run (fun u f => ok_result (E := serr) (g u f)) units d m evs)).
Proof.
  induction evs as [|ev rest IH]; intros units d m; [destruct m; exact I|].
  destruct ev as [f| |[lvl|]| | |]; cbn [run]; try exact I.
  - destruct m as [|r]; [|apply IH]. destruct (g units f) as [[bytes units'] lg]. cbn [ok_result].
    specialize (IH units' d (match bytes with [] => MIdle | _ => MWriting bytes end)).
    destruct (run _ units' d _ rest) as [[[[ws u] lg'] dd] e]. exact IH.
  - destruct m as [|r]; [exact I|apply IH].
  - apply IH.
  - destruct m as [|r]; [apply IH|]. specialize (IH units d MIdle).
    destruct (run _ units d MIdle rest) as [[[[ws u] lg'] dd] e]. exact IH.
  - destruct m as [|r]; [apply IH|exact I].
Qed.

Definition delivered (rs : list (list N)) : list (list N) := filter (fun r => match r with [] => false | _ => true end) rs.
Definition end_of (e : session_end) : run_end serr :=
  match e with SOpen => ROpen | SError x => RError x | SPanic => RPanic end.

Theorem plain_run_is_session l a d : forall frames units,
  observable (session_run H l a units d (plain frames)) =
    (let '(rs, u, lg, e) := session H l a units frames in (delivered rs, u, lg, end_of e)).
Proof.
  unfold session_run. induction frames as [|f rest IH]; intros units; [reflexivity|].
  cbn [plain flat_map app run session]. fold (plain rest).
  destruct (handle_frame H l a units f) as [[[bytes|e|] units'] lg]; try reflexivity.
  specialize (IH units'). destruct (session H l a units' rest) as [[[rs u] lg'] e].
  destruct bytes as [|b bs]; cbn [run delivered filter].
  - destruct (run (handle_frame H l a) units' d MIdle (plain rest)) as [[[[ws u2] lg2] dd] e2].
    cbn [observable] in *. inversion IH; subst. reflexivity.
  - destruct (run (handle_frame H l a) units' d MIdle (plain rest)) as [[[[ws u2] lg2] dd] e2].
    cbn [observable] in *. inversion IH; subst. reflexivity.
Qed.
End Model.
