(* Proofs for C13: the listener trace is a legal path; fail fast; no dial while disabled;
   termination; disable closes the connection. *)
From Coq Require Import NArith List Bool.
From Rodbus Require Import Spec.Lifecycle Gen.SessionErrors Model.ClientTask Proofs.ClientBase.
Import ListNotations.
Local Open Scope N_scope.

Local Arguments listens_of o : simpl nomatch.
Definition is_wait (l : cstate) : bool := match l with LWaitFailed _ | LWaitDisc _ => true | _ => false end.
Definition final {A} (last : A) (l : list A) : A := fold_left (fun _ x => x) l last.

Lemma path_app a l1 l2 : path a (l1 ++ l2) = path a l1 && path (final a l1) l2.
Proof. revert a; induction l1 as [|x l1 IH]; intros a; cbn; [reflexivity|]. rewrite IH, andb_assoc. reflexivity. Qed.
Lemma final_app {A} (a : A) l1 l2 : final a (l1 ++ l2) = final (final a l1) l2.
Proof. unfold final. apply fold_left_app. Qed.

(* what the listener last heard, given where the task is *)
Definition consistent (s : state) (last : cstate) : Prop :=
  match ph s with
  | PWaitEnabled => last = LDisabled /\ enabled s = false
  | PConnecting => last = LConnecting /\ enabled s = true
  | PIdle | PWriting _ _ _ | PInFlight _ _ _ => last = LConnected /\ enabled s = true
  | PWaiting _ => is_wait last = true /\ enabled s = true
  | PDone => True
  end.

Definition good (last : cstate) (r : state * list output) : Prop :=
  path last (listens_of (snd r)) = true /\ consistent (fst r) (final last (listens_of (snd r))).

Lemma good_pads last r r0 : pads r r0 -> good last r0 -> good last r.
Proof.
  intros Hp G. unfold good. rewrite (pads_listens _ _ Hp), (proj1 Hp). exact G.
Qed.

Lemma consistent_alive s last : consistent s last -> ph s <> PDone -> last <> LShutdown.
Proof.
  unfold consistent. intros H Hn ->. destruct (ph s); [..|congruence]; destruct H as [H _]; discriminate H.
Qed.

(* each result the listener can see continues a legal path from what it last heard *)
Lemma noted_good s last r0 : consistent s last -> ph s <> PDone -> noted s r0 -> good last r0.
Proof.
  intros Hc0 Hnd Hn. pose proof (consistent_alive s last Hc0 Hnd) as Ha. pose proof Hc0 as Hc. unfold consistent in Hc.
  assert (Hon : connected (ph s) = true -> last = LConnected /\ enabled s = true) by (destruct (ph s); try discriminate; intros _; exact Hc).
  assert (Hoff : ph s = PConnecting \/ (exists u, ph s = PWaiting u) -> edge last LDisabled = true).
  { intros [E|[u E]]; rewrite E in Hc; destruct Hc as [W _]; [rewrite W; reflexivity|destruct last; try discriminate W; reflexivity]. }
  destruct Hn as [s' Hp He|s' Hp Hl He|s' Hc1 Hc2 He|s' _ Hp|s' pre Hp Hs|s' se d u Hc1 Hp He|s' se Hc1 Hp|s' Hc1 Hp He
                 |s' Hp1 Hp He|s' d u Hp1 Hp He|s' Hs Hp He|s' Hs Hp He];
    unfold good, consistent; cbn [fst snd].
  - (* n_unnoticed *) rewrite Hp, He. split; [reflexivity|exact Hc].
  - (* n_setting *) rewrite Hp. split; [reflexivity|]. cbn.
    destruct (ph s); try discriminate Hl; destruct Hc as [H1 H2]; destruct He as [[He Hn]|[He Hw]]; try congruence; try discriminate Hw; split; assumption.
  - (* n_connected_on *) destruct (Hon Hc1) as [-> H2]. split; [reflexivity|]. cbn. rewrite He. destruct (ph s'); try discriminate Hc2; auto.
  - (* n_crashed *) rewrite Hp. split; [reflexivity|exact I].
  - (* n_shutdown *) rewrite Hp. split; [|exact I]. destruct Hs as [[_ ->]|(_ & _ & ->)]; cbn; destruct last; try reflexivity; congruence.
  - (* n_lost *) destruct (Hon Hc1) as [-> H2]. rewrite Hp, He. split; [reflexivity|auto].
  - (* n_lost_crashed *) rewrite Hp. split; [reflexivity|exact I].
  - (* n_disabled_on *) destruct (Hon Hc1) as [-> H2]. rewrite Hp, He. split; [reflexivity|auto].
  - (* n_connected *) rewrite Hp1 in Hc. destruct Hc as [-> H2]. rewrite Hp, He. split; [reflexivity|auto].
  - (* n_refused *) rewrite Hp1 in Hc. destruct Hc as [-> H2]. rewrite Hp, He. split; [reflexivity|auto].
  - (* n_dial *) rewrite Hp, He. split; [|auto]. destruct Hs as [E|[u E]]; rewrite E in Hc; destruct Hc as [W _]; [rewrite W; reflexivity|].
    destruct last; try discriminate W; reflexivity.
  - (* n_disabled_off *) rewrite Hp, He. cbn. rewrite (Hoff Hs). auto.
Qed.

Section L.
Variable cfg : config.

Theorem step_good s e last : consistent s last -> ph s <> PDone -> good last (step cfg s e).
Proof.
  intros Hc Hn. destruct (step_seen cfg s e) as (r0 & Hp & H0). exact (good_pads last _ r0 Hp (noted_good s last r0 Hc Hn H0)).
Qed.

(* of the results the listener can see only n_dial dials *)
Lemma step_dial s e : In ODial (snd (step cfg s e)) -> enabled (fst (step cfg s e)) = true.
Proof.
  destruct (step_seen cfg s e) as (r0 & Hpad & Hn). rewrite (proj1 Hpad). intros H. apply (pads_dial _ _ Hpad) in H.
  destruct Hn as [s' _ _|s' _ _ _|s' _ _ _|s' _ _|s' p _ Hs|s' se d u _ _ _|s' se _ _|s' _ _ _|s' _ _ _|s' d u _ _ _|s' _ _ He|s' _ _ _]; cbn [fst snd] in *.
  - (* n_unnoticed *) destruct H.
  - (* n_setting *) destruct H.
  - (* n_connected_on *) destruct H.
  - (* n_crashed *) destruct H.
  - (* n_shutdown *) destruct Hs as [[_ ->]|(_ & _ & ->)]; repeat (destruct H as [H|H]; try discriminate H); destruct H.
  - (* n_lost *) destruct H as [H|[H|[]]]; discriminate H.
  - (* n_lost_crashed *) destruct H as [H|[]]; discriminate H.
  - (* n_disabled_on *) destruct H as [H|[H|[]]]; discriminate H.
  - (* n_connected *) destruct H as [H|[]]; discriminate H.
  - (* n_refused *) destruct H as [H|[]]; discriminate H.
  - (* n_dial *) exact He.
  - (* n_disabled_off *) destruct H as [H|[]]; discriminate H.
Qed.

(* a terminated task stays terminated and tells the listener nothing more *)
Lemma done_silent s e : ph s = PDone -> ph (fst (step cfg s e)) = PDone /\ listens_of (snd (step cfg s e)) = [] /\ ~ In ODial (snd (step cfg s e)).
Proof.
  intros Hd. destruct e; cbn [step]; rewrite ?Hd; cbn [listens reading fst snd]; try (repeat split; auto; intros []; fail).
  - destruct (Nat.eqb (handles s) 0); cbn [fst snd]; [repeat split; auto; intros []|]. repeat split; [exact Hd|apply listens_drop|apply mute_dial, mute_drop].
  - destruct (wpark s) as [|n]; cbn [ph set_wpark fst snd]; rewrite ?Hd; cbn [fst snd]; repeat split; auto; intros [].
Qed.

Lemma run_done : forall es s, ph s = PDone -> ph (fst (run cfg s es)) = PDone /\ listens_of (snd (run cfg s es)) = [].
Proof.
  induction es as [|e es IH]; intros s Hd; [auto|]. rewrite run_cons. cbn [fst snd].
  destruct (done_silent s e Hd) as (H1 & H2 & _). destruct (IH _ H1) as [I1 I2]. rewrite listens_app, H2, I2. auto.
Qed.

Theorem run_good : forall es s last, consistent s last -> ph s <> PDone ->
  let '(s', o) := run cfg s es in
  path last (listens_of o) = true /\ (ph s' <> PDone -> consistent s' (final last (listens_of o))).
Proof.
  induction es as [|e es IH]; intros s last Hc Hnd; cbn [run].
  - cbn. auto.
  - pose proof (step_good s e last Hc Hnd) as (Hp & Hc'). destruct (step cfg s e) as [s1 o1]. cbn [fst snd] in *.
    destruct (phase_done_dec (ph s1)) as [Hd1|Hn1].
    + destruct (run_done es s1 Hd1) as [D1 D2]. destruct (run cfg s1 es) as [s2 o2]. cbn [fst snd] in *.
      rewrite listens_app, D2, app_nil_r. split; [exact Hp|]. intros H. contradiction.
    + specialize (IH s1 (final last (listens_of o1)) Hc' Hn1). destruct (run cfg s1 es) as [s2 o2]. destruct IH as [I1 I2].
      rewrite listens_app, path_app, final_app, Hp, I1. split; [reflexivity|exact I2].
Qed.

End L.

Lemma path_shutdown_last : forall l a, path a l = true -> shutdown_last l = true.
Proof.
  induction l as [|x l IH]; intros a H; [reflexivity|]. cbn [path] in H. apply andb_prop in H. destruct H as [_ H].
  destruct x; cbn [shutdown_last]; try (eapply IH; exact H).
  destruct l as [|y l]; [reflexivity|]. cbn [path] in H. destruct y; discriminate.
Qed.

Section Statements.
Variable cfg : config.
Variables (hn : nat) (mt : option N) (rmin rmax : N).
Notation s0 := (init hn mt rmin rmax).

Lemma init_consistent : consistent s0 LDisabled.
Proof. unfold consistent. cbn. auto. Qed.

Lemma c13_fail_fast s r q : listens (ph s) = true -> connected (ph s) = false -> queue s = CReq r :: q ->
  step cfg s EvRecv = (set_chan s (q ++ firstn 1 (blocked s)) (skipn 1 (blocked s)), [OComplete (rq_id r) (RErr ReNoConnection)]).
Proof.
  intros Hl Hc Hq. cbn [step]. rewrite Hl, Hq. unfold take. cbn [ph set_chan]. destruct (ph s); try discriminate; reflexivity.
Qed.

Lemma c13_terminates s : listens (ph s) = true ->
  (forall q, queue s = CShutdown :: q -> ph (fst (step cfg s EvRecv)) = PDone /\ listens_of (snd (step cfg s EvRecv)) = [LShutdown]) /\
  (queue s = [] -> closed s = true -> ph (fst (step cfg s EvRecv)) = PDone /\ listens_of (snd (step cfg s EvRecv)) = [LShutdown]).
Proof.
  intros Hl. split.
  - intros q Hq. cbn [step]. rewrite Hl, Hq. unfold take. cbn [ph set_chan].
    destruct (ph s); try discriminate; unfold end_session, terminate; cbn [fst snd ph set_ph set_chan]; rewrite ?listens_app, listens_drop; auto.
  - intros Hq Hc. cbn [step]. rewrite Hl, Hq, Hc.
    destruct (ph s); try discriminate; unfold end_session, terminate; cbn [fst snd ph set_ph set_chan]; rewrite ?listens_app, listens_drop; auto.
Qed.

Lemma c13_in_flight_ends s r tx d : ph s = PInFlight r tx d -> fire cfg d <= now s ->
  let s2 := fst (step cfg s EvTimer) in listens (ph s2) = true \/ ph s2 = PDone.
Proof.
  intros Hp Hf. cbn [step]. rewrite Hp, (proj2 (N.leb_le _ _) Hf).
  destruct (finish_summary s r (RErr deadline_error)) as (Hi & _). destruct (ph (fst _)); try discriminate; auto.
Qed.

End Statements.

