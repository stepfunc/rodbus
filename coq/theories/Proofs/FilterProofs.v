(* Proofs for C16: the wildcard parser accepts exactly the grammar, `matches` is membership, the
   accept arm serves only admitted peers, every constructor forwards the caller's filter. *)
From Coq Require Import NArith List Lia Bool String.
From Rodbus Require Import Gen.ServerCtors Model.Filter Spec.FilterSpec.
Import ListNotations.
Local Open Scope N_scope.

Lemma is_dot_true c : is_dot c = true <-> c = 46.
Proof. unfold is_dot, ch_dot. apply N.eqb_eq. Qed.
Lemma is_dot_false c : is_dot c = false <-> c <> 46.
Proof. unfold is_dot, ch_dot. apply N.eqb_neq. Qed.

Lemma nodot_cons c f : nodot (c :: f) <-> c <> 46 /\ nodot f.
Proof. unfold nodot. cbn [In]. intuition congruence. Qed.

Lemma split_nonempty x : split x <> [].
Proof.
  destruct x as [|c r]; cbn [split]; [discriminate|].
  destruct (is_dot c); [discriminate|]. destruct (split r); discriminate.
Qed.

Lemma split_app_dot f r : nodot f -> split (f ++ 46 :: r) = f :: split r.
Proof.
  induction f as [|c f IH]; intros H.
  - cbn [app split]. replace (is_dot 46) with true by reflexivity. reflexivity.
  - apply nodot_cons in H as [Hc Hf]. cbn [app split].
    apply is_dot_false in Hc. rewrite Hc, IH by assumption. reflexivity.
Qed.

Lemma split_nodot f : nodot f -> split f = [f].
Proof.
  induction f as [|c f IH]; intros H; cbn [split]; [reflexivity|].
  apply nodot_cons in H as [Hc Hf]. apply is_dot_false in Hc. rewrite Hc, IH by assumption. reflexivity.
Qed.

Lemma split_join fs : fs <> [] -> Forall nodot fs -> split (join fs) = fs.
Proof.
  induction fs as [|f fs IH]; [congruence|]. intros _ Hall. inversion Hall as [|? ? Hf Hr]; subst.
  destruct fs as [|g fs]; [cbn [join]; now apply split_nodot|].
  change (join (f :: g :: fs)) with (f ++ 46 :: join (g :: fs)). rewrite split_app_dot by assumption.
  f_equal. apply IH; [discriminate|assumption].
Qed.

Lemma join_split x : join (split x) = x /\ Forall nodot (split x).
Proof.
  induction x as [|c r [IHj IHn]]; cbn [split]; [split; [reflexivity|repeat constructor; intros []]|].
  destruct (is_dot c) eqn:Ed.
  - apply is_dot_true in Ed. subst. split.
    + destruct (split r) as [|g gs] eqn:E; [exfalso; eapply split_nonempty; eauto|].
      change (join ([] :: g :: gs)) with ([] ++ 46 :: join (g :: gs)). now rewrite IHj.
    + constructor; [intros []|assumption].
  - destruct (split r) as [|f fs] eqn:E; [exfalso; eapply split_nonempty; eauto|]. split.
    + destruct fs as [|g fs].
      * cbn [join] in *. now rewrite IHj.
      * change (join ((c :: f) :: g :: fs)) with (c :: (f ++ 46 :: join (g :: fs))).
        change (join (f :: g :: fs)) with (f ++ 46 :: join (g :: fs)) in IHj. now rewrite IHj.
    + inversion IHn; subst. constructor; [|assumption]. apply nodot_cons. split; [now apply is_dot_false|assumption].
Qed.

Lemma none_iff {A B} (f : A -> option B) (P : A -> B -> Prop) :
  (forall x y, f x = Some y <-> P x y) -> forall x, f x = None <-> forall y, ~ P x y.
Proof.
  intros Hf x. split.
  - intros H y Hy. apply Hf in Hy. congruence.
  - intros H. destruct (f x) as [y|] eqn:E; [|reflexivity]. apply Hf in E. now apply H in E.
Qed.

Lemma digit_spec c d : digit c = Some d <-> dec_digit c d.
Proof.
  unfold digit, dec_digit, ch_zero, ch_nine. split.
  - destruct (48 <=? c) eqn:E1; [|discriminate]. destruct (c <=? 57) eqn:E2; [|discriminate].
    cbn [andb]. intros H; inversion H; subst. apply N.leb_le in E1, E2. auto.
  - intros (H1 & H2 & ->). apply N.leb_le in H1, H2. now rewrite H1, H2.
Qed.

Lemma digit_none c : digit c = None <-> forall d, ~ dec_digit c d.
Proof. exact (none_iff digit dec_digit digit_spec c). Qed.

Lemma value_ge ds : forall a, a <= value a ds.
Proof. induction ds as [|d r IH]; intros a; cbn [value]; [lia|]. specialize (IH (a * 10 + d)). lia. Qed.

Lemma dec_digit_fun c d d' : dec_digit c d -> dec_digit c d' -> d = d'.
Proof. intros (_ & _ & ->) (_ & _ & ->). reflexivity. Qed.

Lemma digits_spec f : forall acc v, acc <= 255 ->
  (digits acc f = Some v <-> exists ds, Forall2 dec_digit f ds /\ v = value acc ds /\ v <= 255).
Proof.
  induction f as [|c r IH]; intros acc v Hacc; cbn [digits].
  - split.
    + intros H; injection H as <-. exists []. cbn [value]. auto.
    + intros (ds & Hd & -> & _). inversion Hd; subst. reflexivity.
  - destruct (digit c) as [d|] eqn:Ed.
    + apply digit_spec in Ed.
      (* a digit sequence for c :: r is d followed by one for r *)
      assert (Hcons : (exists ds, Forall2 dec_digit (c :: r) ds /\ v = value acc ds /\ v <= 255) <->
                      (exists ds, Forall2 dec_digit r ds /\ v = value (acc * 10 + d) ds /\ v <= 255)).
      { split.
        - intros (ds & Hd & Hv). inversion Hd as [|? d' ? ds' Hc Hr]; subst. rewrite (dec_digit_fun _ _ _ Hc Ed) in Hv. now exists ds'.
        - intros (ds & Hr & Hv). exists (d :: ds). split; [now constructor|exact Hv]. }
      rewrite Hcons. destruct (acc * 10 + d <=? 255) eqn:Hle.
      * apply IH. now apply N.leb_le.
      * apply N.leb_gt in Hle. split; [discriminate|]. intros (ds & _ & -> & Hv).
        pose proof (value_ge ds (acc * 10 + d)). lia.
    + split; [discriminate|]. intros (ds & Hd & _). inversion Hd as [|? d' ? ds' Hc Hr]; subst.
      apply digit_spec in Hc. congruence.
Qed.

Lemma not_digit_plus d : ~ dec_digit 43 d.
Proof. unfold dec_digit. lia. Qed.
Lemma not_digit_star d : ~ dec_digit 42 d.
Proof. unfold dec_digit. lia. Qed.

Lemma is_star_true s : is_star s = true <-> s = [42].
Proof.
  unfold is_star, ch_star. destruct s as [|c [|c' r]]; split; try discriminate.
  - intros H. apply N.eqb_eq in H. now subst.
  - intros H. inversion H. reflexivity.
Qed.

Lemma parse_u8_spec f v : parse_u8 f = Some v <-> field f (Some v).
Proof.
  unfold parse_u8, ch_plus. split.
  - destruct f as [|c r]; [discriminate|]. destruct (N.eqb_spec c 43) as [->|Ep].
    + destruct r as [|c' r']; [discriminate|]. rewrite digits_spec by discriminate.
      intros (ds & Hd & -> & Hv). apply FPlus; [discriminate|assumption|assumption].
    + rewrite digits_spec by discriminate. intros (ds & Hd & -> & Hv). apply FNum; [discriminate|assumption|assumption].
  - intros H. inversion H as [|g ds Hne Hd Hv|g ds Hne Hd Hv]; subst.
    + (* a numeral starts with a digit, which is not '+' *)
      destruct f as [|c r]; [congruence|]. destruct (N.eqb_spec c 43) as [->|_].
      * inversion Hd; subst. exfalso. eapply not_digit_plus; eauto.
      * apply digits_spec; [discriminate|]. now exists ds.
    + rewrite N.eqb_refl. destruct g as [|c' r']; [congruence|]. apply digits_spec; [discriminate|]. now exists ds.
Qed.

Lemma get_byte_spec f w : get_byte f = Some w <-> field f w.
Proof.
  unfold get_byte. destruct (is_star f) eqn:Es.
  - apply is_star_true in Es. subst f. split.
    + intros H; injection H as <-. constructor.
    + intros H. inversion H as [|g ds Hne Hd Hv|g ds Hne Hd Hv]; subst; [reflexivity|].
      inversion Hd; subst. exfalso. eapply not_digit_star; eauto.
  - destruct w as [v|].
    + rewrite <- parse_u8_spec. destruct (parse_u8 f); cbn [option_map]; split; congruence.
    + split; [destruct (parse_u8 f); discriminate|]. intros H. inversion H; subst. discriminate Es.
Qed.

Lemma parse_wildcard_split s w :
  parse_wildcard s = Some w <->
  exists f3 f2 f1 f0, split s = [f3; f2; f1; f0] /\
    get_byte f3 = Some (b3 w) /\ get_byte f2 = Some (b2 w) /\ get_byte f1 = Some (b1 w) /\ get_byte f0 = Some (b0 w).
Proof.
  unfold parse_wildcard. split.
  - destruct (split s) as [|f3 r3]; [discriminate|]. destruct (get_byte f3) as [x3|] eqn:E3; [|discriminate].
    destruct r3 as [|f2 r2]; [discriminate|]. destruct (get_byte f2) as [x2|] eqn:E2; [|discriminate].
    destruct r2 as [|f1 r1]; [discriminate|]. destruct (get_byte f1) as [x1|] eqn:E1; [|discriminate].
    destruct r1 as [|f0 r0]; [discriminate|]. destruct (get_byte f0) as [x0|] eqn:E0; [|discriminate].
    destruct r0; [|discriminate]. intros X; injection X as <-. exists f3, f2, f1, f0. auto 10.
  - intros (f3 & f2 & f1 & f0 & -> & -> & -> & -> & ->). now destruct w.
Qed.

(* used as C16_parse *)
Theorem parse_iff s w : parse_wildcard s = Some w <-> wildcard_string s w.
Proof.
  rewrite parse_wildcard_split. unfold wildcard_string. split.
  - intros (f3 & f2 & f1 & f0 & E & H3 & H2 & H1 & H0).
    destruct (join_split s) as [Hj Hn]. rewrite E in Hj, Hn.
    inversion Hn as [|? ? N3 Hn2]; subst. inversion Hn2 as [|? ? N2 Hn1]; subst.
    inversion Hn1 as [|? ? N1 Hn0]; subst. inversion Hn0 as [|? ? N0 _]; subst.
    apply get_byte_spec in H3, H2, H1, H0. exists f3, f2, f1, f0. auto 10.
  - intros (f3 & f2 & f1 & f0 & -> & N3 & N2 & N1 & N0 & H3 & H2 & H1 & H0).
    apply get_byte_spec in H3, H2, H1, H0. exists f3, f2, f1, f0.
    rewrite split_join by (try discriminate; repeat constructor; assumption). auto 10.
Qed.

Lemma list_N_eqb_eq x : forall y, list_N_eqb x y = true <-> x = y.
Proof.
  induction x as [|a x IH]; intros [|b y]; cbn [list_N_eqb]; split; try discriminate; try reflexivity.
  - intros H. apply andb_prop in H as [H1 H2]. apply N.eqb_eq in H1. apply IH in H2. now subst.
  - intros H. inversion H; subst. rewrite N.eqb_refl. cbn [andb]. now apply IH.
Qed.

Lemma ip_eqb_eq x y : ip_eqb x y = true <-> x = y.
Proof.
  destruct x as [a b c d|s], y as [a' b' c' d'|s']; cbn [ip_eqb]; split; try discriminate.
  - intros H. apply andb_prop in H as [H Hd]. apply andb_prop in H as [H Hc]. apply andb_prop in H as [Ha Hb].
    apply N.eqb_eq in Ha, Hb, Hc, Hd. now subst.
  - intros H. inversion H; subst. now rewrite !N.eqb_refl.
  - intros H. apply list_N_eqb_eq in H. now subst.
  - intros H. inversion H; subst. now apply list_N_eqb_eq.
Qed.

Lemma bm_spec a p : bm a p = true <-> octet_ok p a.
Proof.
  unfold bm, octet_ok. destruct p as [x|].
  - rewrite N.eqb_eq. split; [intros ->; now right|intros [H|H]; [discriminate|now inversion H]].
  - split; auto.
Qed.

(* used as C16_match *)
Theorem matches_iff f peer : matches f peer = true <-> admits f peer.
Proof.
  destruct f as [|a|s|w]; cbn [matches admits].
  - split; auto.
  - rewrite ip_eqb_eq. split; congruence.
  - rewrite existsb_exists. split.
    + intros (x & Hin & He). apply ip_eqb_eq in He. now subst.
    + intros Hin. exists peer. split; [assumption|now apply ip_eqb_eq].
  - unfold wc_matches. destruct peer as [a3 a2 a1 a0|segs].
    + rewrite !andb_true_iff, !bm_spec. split.
      * intros (((H3 & H2) & H1) & H0). exists a3, a2, a1, a0. auto.
      * intros (x3 & x2 & x1 & x0 & E & H3 & H2 & H1 & H0). inversion E; subst. auto.
    + split; [discriminate|]. intros (x3 & x2 & x1 & x0 & E & _). discriminate.
Qed.

(* by computation on the generated shape of the accept arm *)
Lemma gate_shape_ok :
  match accept_arm with
  | IfMatches then_ else_ => forallb (fun c => negb (uses_socket c)) else_ = true /\ In CallHandle then_
  | Unguarded _ => False
  end.
Proof. vm_compute. split; [reflexivity|]. tauto. Qed.

(* used as C16_gate *)
Theorem gate_served_only_if_admitted f peer c :
  In c (on_accept accept_arm f peer) -> uses_socket c = true -> admits f peer.
Proof.
  pose proof gate_shape_ok as G. unfold on_accept. destruct accept_arm as [t e|l]; [|contradiction].
  destruct G as [Ge _]. destruct (matches f peer) eqn:M.
  - intros _ _. now apply matches_iff.
  - intros Hin Hu. rewrite forallb_forall in Ge. apply Ge in Hin. rewrite Hu in Hin. discriminate.
Qed.

Theorem gate_admitted_is_handled f peer : admits f peer -> In CallHandle (on_accept accept_arm f peer).
Proof.
  pose proof gate_shape_ok as G. unfold on_accept. destruct accept_arm as [t e|l]; [|contradiction].
  destruct G as [_ Gt]. intros H. apply matches_iff in H. now rewrite H.
Qed.

Lemma guard_is_the_filter_test : accept_guard = [GMatches] /\ accept_guard_kind = ServeInThen
                              \/ accept_guard = [GNotMatches] /\ accept_guard_kind = RejectInThen.
Proof. left. split; reflexivity. Qed.

(* used for C16_gate_decision: the decision is a function of (filter, peer) only *)
Theorem gate_decision o hist f peer : served accept_guard accept_guard_kind o hist f peer = matches f peer.
Proof.
  destruct guard_is_the_filter_test as [[-> ->]|[-> ->]]; cbn.
  - now rewrite Bool.andb_true_r.
  - rewrite Bool.andb_true_r. apply Bool.negb_involutive.
Qed.

Theorem gate_sequence o f peers : forall hist,
  serve_seq accept_guard accept_guard_kind o hist f peers = map (matches f) peers.
Proof.
  induction peers as [|p rest IH]; intro hist; cbn [serve_seq map]; [reflexivity|].
  now rewrite gate_decision, IH.
Qed.

(* every path from a constructor reaches the server task with exactly the caller's filter. The fuel 8
   is not part of the claim: `effective` answers [None] when it runs out, so too small a fuel makes
   `forwards` false, never vacuously true; the longest chain in the generated table has 5 calls. *)
Definition forwards (fn : string) : Prop :=
  forall f : afilter, effective 8 fn f <> [] /\ Forall (fun r => r = Some f) (effective 8 fn f).

(* Forall_map is used from right to left: it turns the goal into a Forall over the one closed list
   `map (fun fn => effective 8 fn f) ctor_fns`, which a single vm_compute evaluates (the caller's
   filter f stays a variable); what is left is to look at each result. *)
Theorem forward_all fn : In fn ctor_fns -> forwards fn.
Proof.
  intros H f. revert fn H. apply Forall_forall.
  apply (proj1 (Forall_map (fun fn => effective 8 fn f) (fun l => l <> [] /\ Forall (fun r => r = Some f) l) ctor_fns)).
  vm_compute. repeat (constructor; [split; [discriminate|repeat constructor]|]). constructor.
Qed.

Lemma public_are_ctors fn : In fn public_ctors -> In fn ctor_fns.
Proof.
  intros H. assert (E : forallb (fun p => existsb (String.eqb p) ctor_fns) public_ctors = true) by (vm_compute; reflexivity).
  rewrite forallb_forall in E. apply E, existsb_exists in H as (x & Hin & He). apply String.eqb_eq in He. now subst.
Qed.

Lemma digits_nonempty_not_star f v : digits 0 f = Some v -> f <> [] -> is_star f = false.
Proof.
  destruct f as [|c [|c' r]]; intros H Hne; try congruence; [|reflexivity].
  unfold is_star. destruct (N.eqb c ch_star) eqn:E; [|reflexivity].
  apply N.eqb_eq in E. subst. cbn in H. discriminate.
Qed.

Lemma parse_octet_get_byte f v : parse_octet f = Some v -> get_byte f = Some (Some v).
Proof.
  unfold parse_octet. destruct f as [|c r]; [discriminate|].
  destruct (N.eqb c ch_zero && negb match r with [] => true | _ => false end); [discriminate|].
  destruct (Nat.ltb 3 (List.length (c :: r))); [discriminate|].
  destruct (N.eqb c ch_plus) eqn:Ep; [discriminate|]. intros H.
  unfold get_byte. rewrite (digits_nonempty_not_star (c :: r) v H) by discriminate.
  unfold parse_u8. rewrite Ep, H. reflexivity.
Qed.

Theorem ipv4_literal_is_wildcard s a b c d :
  parse_ipv4 s = Some (V4 a b c d) ->
  parse_wildcard s = Some {| b3 := Some a; b2 := Some b; b1 := Some c; b0 := Some d |}.
Proof.
  unfold parse_ipv4. intros H. apply parse_wildcard_split.
  destruct (split s) as [|f3 [|f2 [|f1 [|f0 [|? ?]]]]]; try discriminate.
  destruct (parse_octet f3) eqn:E3; [|discriminate]. destruct (parse_octet f2) eqn:E2; [|discriminate].
  destruct (parse_octet f1) eqn:E1; [|discriminate]. destruct (parse_octet f0) eqn:E0; [|discriminate].
  inversion H; subst. exists f3, f2, f1, f0. cbn [b3 b2 b1 b0].
  repeat split; auto using parse_octet_get_byte.
Qed.

Lemma parse_ipv4_is_v4 s x : parse_ipv4 s = Some x -> exists a b c d, x = V4 a b c d.
Proof.
  unfold parse_ipv4. destruct (split s) as [|f3 [|f2 [|f1 [|f0 [|? ?]]]]]; try discriminate.
  destruct (parse_octet f3), (parse_octet f2), (parse_octet f1), (parse_octet f0); try discriminate.
  intros H; inversion H; eauto.
Qed.

Lemma exact_set_vs_wildcard a b c d peer :
  matches (AnyOf [V4 a b c d]) peer = matches (WildcardIpv4 {| b3 := Some a; b2 := Some b; b1 := Some c; b0 := Some d |}) peer.
Proof.
  cbn [matches existsb wc_matches]. destruct peer as [x3 x2 x1 x0|segs]; cbn [ip_eqb bm b3 b2 b1 b0].
  - rewrite orb_false_r. rewrite (N.eqb_sym a), (N.eqb_sym b), (N.eqb_sym c), (N.eqb_sym d). reflexivity.
  - reflexivity.
Qed.

(* used as C16_ffi_filter_string *)
Theorem ffi_filter_is_wildcard_semantics s f :
  ffi_filter_v4 s = Some f ->
  exists w, wildcard_string s w /\ forall peer, matches f peer = matches (WildcardIpv4 w) peer.
Proof.
  unfold ffi_filter_v4. destruct (parse_ipv4 s) as [x|] eqn:E.
  - destruct (parse_ipv4_is_v4 s x E) as (a & b & c & d & ->). intros H; inversion H; subst.
    eexists. split; [apply parse_iff; eapply ipv4_literal_is_wildcard; eassumption|].
    intros peer. apply exact_set_vs_wildcard.
  - destruct (parse_wildcard s) as [w|] eqn:Ew; [|discriminate]. intros H; inversion H; subst.
    exists w. split; [now apply parse_iff|reflexivity].
Qed.

Definition wildcard_char (c : N) : Prop := c = 42 \/ c = 43 \/ c = 46 \/ (48 <= c /\ c <= 57).

Lemma digit_chars g ds : Forall2 dec_digit g ds -> Forall wildcard_char g.
Proof.
  induction 1 as [|c d g ds (H1 & H2 & _) _ IH]; constructor; [|exact IH]. right; right; right. now split.
Qed.

Lemma field_chars f p : field f p -> Forall wildcard_char f.
Proof.
  intros H. inversion H as [|g ds _ Hd _|g ds _ Hd _]; subst.
  - repeat constructor.
  - exact (digit_chars _ _ Hd).
  - constructor; [right; left; reflexivity|exact (digit_chars _ _ Hd)].
Qed.

Lemma wildcard_string_chars s w : wildcard_string s w -> Forall wildcard_char s.
Proof.
  intros (f3 & f2 & f1 & f0 & -> & _ & _ & _ & _ & H3 & H2 & H1 & H0).
  apply field_chars in H3, H2, H1, H0. cbn [join].
  repeat (apply Forall_app; split; [assumption|constructor; [right; right; left; reflexivity|]]). assumption.
Qed.

(* a string containing ':' (58) is never accepted by the wildcard parser *)
Theorem colon_never_wildcard s : In 58 s -> parse_wildcard s = None.
Proof.
  intros Hin. destruct (parse_wildcard s) as [w|] eqn:E; [|reflexivity].
  apply parse_iff in E. apply wildcard_string_chars in E. rewrite Forall_forall in E.
  specialize (E 58 Hin). unfold wildcard_char in E. lia.
Qed.
