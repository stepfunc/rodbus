(* Lemmas for C03 (client request encoding). A serializer that `appends` given bytes composes
   with obind; `build` either constructs `request_of c` or rejects the call; `request_of c`
   serializes to the body of the Spec's PDU within the limits and fails beyond them. *)
(* ZifyBool: lia then reads `&&`, `<=?`, `<?` (range_ok and the limits are booleans). *)
From Coq Require Import NArith List Lia Bool ZifyBool.
From Rodbus Require Import Base.Outcome Base.Cursor Base.ClientTypes Model.Crc Model.Format Model.Range
  Model.ClientRequest Spec.ClientCodecSpec Gen.Consts Proofs.CursorProofs Proofs.PackProofs.
Import ListNotations.
Local Open Scope N_scope.

Lemma try_from_inr s n r : try_from s n = inr r -> r = (s, n).
Proof. unfold try_from. destruct (n =? 0); [discriminate|]. destruct (_ <? s); [discriminate|]. now intros [= <-]. Qed.

Lemma try_from_err : forall s n e, try_from s n = inl e -> e = CountOfZero \/ e = AddressOverflow.
Proof.
  intros s n e. unfold try_from. destruct (n =? 0); [intros H; injection H as <-; auto|].
  destruct (65535 - (n - 1) <? s); intros H; [injection H as <-; auto|discriminate].
Qed.

Lemma try_from_spec start count : count < 65536 ->
  try_from start count =
    if range_ok start count then inr (start, count)
    else if count =? 0 then inl CountOfZero else inl AddressOverflow.
Proof.
  intros Hc. unfold try_from, range_ok.
  destruct (N.eqb_spec count 0) as [->|Hz]; [reflexivity|].
  destruct (N.ltb_spec (65535 - (count - 1)) start).
  - now replace ((1 <=? count) && (start + count <=? 65536)) with false by lia.
  - now replace ((1 <=? count) && (start + count <=? 65536)) with true by lia.
Qed.

Lemma range_ok_true s n : range_ok s n = true -> 1 <= n /\ s + n <= 65536.
Proof. unfold range_ok. lia. Qed.

Lemma try_from_total start count : start < 65536 -> count < 65536 ->
  (try_from start count = inr (start, count) <-> 1 <= count /\ start + count <= 65536).
Proof.
  intros Hs Hc. rewrite try_from_spec by assumption. destruct (range_ok start count) eqn:E.
  - apply range_ok_true in E. now split.
  - split; [destruct (count =? 0); discriminate|]. unfold range_ok in E. lia.
Qed.

Definition request_of (c : call) : request :=
  match c with
  | CReadCoils s n => RReadCoils (s, n)
  | CReadDiscreteInputs s n => RReadDiscreteInputs (s, n)
  | CReadHoldingRegisters s n => RReadHoldingRegisters (s, n)
  | CReadInputRegisters s n => RReadInputRegisters (s, n)
  | CWriteSingleCoil i v => RWriteSingleCoil i v
  | CWriteSingleRegister i v => RWriteSingleRegister i v
  | CWriteMultipleCoils s vs => RWriteMultipleCoils (s, len vs) vs
  | CWriteMultipleRegisters s vs => RWriteMultipleRegisters (s, len vs) vs
  end.

(* the errors of request construction and encoding: InvalidRange and InvalidRequest *)
Definition bad_request (e : req_err) : Prop :=
  match e with
  | ECountOfZero | EAddressOverflow | ECountTooLargeForType | ECountTooBigForU16 | ECountTooBigForType => True
  | _ => False
  end.

(* limited_count: validation first, then the per-type limit, for every u16 x u16 pair *)
Lemma read_built (mk : N * N -> request) limit s n : n < 65536 ->
  match obind (of_range (limited_count (s, n) limit)) (fun r => Ok (mk r)) with
  | Ok r => range_ok s n && (n <=? limit) = true /\ r = mk (s, n)
  | Err e => range_ok s n && (n <=? limit) = false /\ bad_request e
  | Panic => False
  end.
Proof.
  intros Hn. unfold limited_count. cbn [fst snd]. rewrite try_from_spec by assumption.
  destruct (range_ok s n); cbn [andb snd]; [|now destruct (n =? 0)].
  rewrite N.ltb_antisym. now destruct (n <=? limit).
Qed.

(* WriteMultiple::from: the count must fit a u16, then the range is validated *)
Lemma write_built {A} (mk : N * N -> list A -> request) s (vs : list A) :
  match obind (write_multiple_from s vs) (fun '(r, vs') => Ok (mk r vs')) with
  | Ok r => range_ok s (len vs) && (len vs <=? 65535) = true /\ r = mk (s, len vs) vs
  | Err e => range_ok s (len vs) && (len vs <=? 65535) = false /\ bad_request e
  | Panic => False
  end.
Proof.
  unfold write_multiple_from. fold (len vs). rewrite N.ltb_antisym.
  destruct (N.leb_spec (len vs) 65535); cbn [negb obind]; [|now rewrite andb_false_r].
  rewrite try_from_spec, andb_true_r by lia.
  destruct (range_ok s (len vs)); [now split|]. now destruct (len vs =? 0).
Qed.

Lemma build_spec c : call_wf c ->
  match build c with
  | Ok r => reaches_task c = true /\ r = request_of c
  | Err e => reaches_task c = false /\ bad_request e
  | Panic => False
  end.
Proof.
  destruct c as [s n|s n|s n|s n|i v|i v|s vs|s vs]; cbn [call_wf]; intros Hwf.
  - exact (read_built RReadCoils _ s n (proj2 Hwf)).
  - exact (read_built RReadDiscreteInputs _ s n (proj2 Hwf)).
  - exact (read_built RReadHoldingRegisters _ s n (proj2 Hwf)).
  - exact (read_built RReadInputRegisters _ s n (proj2 Hwf)).
  - now split.
  - now split.
  - exact (write_built RWriteMultipleCoils s vs).
  - exact (write_built RWriteMultipleRegisters s vs).
Qed.

Lemma build_wf c r : call_wf c -> build c = Ok r -> request_wf r.
Proof.
  intros Hwf Hb. pose proof (build_spec c Hwf) as S. rewrite Hb in S. destruct S as [Hr ->].
  destruct c as [s n|s n|s n|s n|i v|i v|s vs|s vs]; cbn [call_wf reaches_task within_limits_b request_of request_wf] in *;
    try exact I; apply andb_prop in Hr as [Hr Hn]; apply range_ok_true in Hr;
    unfold range_wf, is_u16 in *; cbn [fst snd]; lia.
Qed.

Lemma within_reaches c : reaches_task c = false -> within_limits_b c = false.
Proof.
  destruct c as [s n|s n|s n|s n|i v|i v|s vs|s vs]; cbn [reaches_task within_limits_b]; try exact (fun H => H);
    destruct (range_ok s (len vs)); cbn [andb]; lia.
Qed.

Definition appends (s : ser) (bs : list N) : Prop :=
  forall w, (length (w_out w) + length bs <= w_cap w)%nat -> s w = Ok (wapp w bs).

Lemma appends_nil : appends (fun w => Ok w) [].
Proof. intros w _. now rewrite wapp_nil. Qed.

Lemma appends_u8 b : appends (fun w => W (wr_u8 w b)) [b].
Proof. intros w H. cbn [length] in H. now rewrite wr_u8_ok by lia. Qed.

Lemma appends_u16_be v : appends (fun w => W (wr_u16_be w v)) (be v).
Proof. intros w H. cbn [length be] in H. now rewrite wr_u16_be_ok by lia. Qed.

Lemma appends_bind (s1 s2 : ser) a b : appends s1 a -> appends s2 b -> appends (fun w => obind (s1 w) s2) (a ++ b).
Proof.
  intros H1 H2 w H. rewrite app_length in H. rewrite H1 by lia. cbn [obind].
  rewrite H2 by (unfold wapp; cbn [w_out w_cap]; rewrite app_length; lia). now rewrite wapp_app.
Qed.

Lemma ser_range_appends r : appends (ser_range r) (be (fst r) ++ be (snd r)).
Proof. exact (appends_bind _ (fun w => W (wr_u16_be w (snd r))) _ _ (appends_u16_be (fst r)) (appends_u16_be (snd r))). Qed.

Lemma ser_indexed_bool_appends i v : appends (ser_indexed_bool i v) (be i ++ (if v then [255; 0] else [0; 0])).
Proof.
  replace (if v then [255; 0] else [0; 0]) with (be (coil_to_u16 v)) by (destruct v; reflexivity).
  exact (appends_bind _ (fun w => W (wr_u16_be w (coil_to_u16 v))) _ _ (appends_u16_be i) (appends_u16_be _)).
Qed.

Lemma lor_pow_add acc i : N.testbit acc i = false -> N.lor acc (N.shiftl 1 i) = acc + 2 ^ i.
Proof. exact (PackProofs.lor_pow_add acc i). Qed.

(* invariant: the accumulator holds the bits seen so far in its low `count` bits *)
Lemma byte_acc_spec bits : forall count acc,
  count + N.of_nat (length bits) <= 8 -> acc < 2 ^ count ->
  byte_acc bits count acc = Ok (acc + 2 ^ count * byte_of_bits bits).
Proof.
  induction bits as [|b rest IH]; intros count acc Hc Ha; cbn [byte_acc byte_of_bits].
  - f_equal. lia.
  - cbn [length] in Hc. assert (Hp : 2 ^ (count + 1) = 2 * 2 ^ count) by (rewrite N.add_1_r; apply N.pow_succ_r').
    destruct b.
    + destruct (N.leb_spec 8 count); [lia|].
      rewrite lor_pow_add by (apply (testbit_lt_pow acc count); [exact Ha|lia]).
      rewrite IH by lia. f_equal. rewrite Hp. ring.
    + rewrite IH by lia. f_equal. rewrite Hp. ring.
Qed.

Lemma byte_acc_chunk bits : (length bits <= 8)%nat -> byte_acc bits 0 0 = Ok (byte_of_bits bits).
Proof.
  intros H. rewrite byte_acc_spec by (cbn; lia). f_equal. change (2 ^ 0) with 1. lia.
Qed.

Lemma ser_bits_loop_cons f bits w : bits <> [] ->
  ser_bits_loop (S f) bits w =
  obind (byte_acc (firstn 8 bits) 0 0) (fun acc => obind (W (wr_u8 w acc)) (fun w1 => ser_bits_loop f (skipn 8 bits) w1)).
Proof. destruct bits; [congruence|reflexivity]. Qed.

Lemma ser_bits_loop_appends : forall fuel bits, (length bits <= fuel)%nat ->
  appends (ser_bits_loop fuel bits) (pack_aux fuel bits).
Proof.
  induction fuel as [|f IH]; intros bits H; [exact appends_nil|].
  destruct (list_eq_dec Bool.bool_dec bits []) as [->|Hne]; [exact appends_nil|].
  assert (Hl : (1 <= length bits)%nat) by (destruct bits; [congruence|cbn; lia]).
  rewrite pack_aux_step by assumption. intros w.
  rewrite ser_bits_loop_cons, byte_acc_chunk by (assumption || rewrite firstn_length; lia). cbn [obind]. revert w.
  refine (appends_bind (fun w => W (wr_u8 w _)) (ser_bits_loop f _) [_] _ (appends_u8 _) (IH _ _)).
  rewrite skipn_length. lia.
Qed.

(* the byte count of a slice must fit the u8 that announces it *)
Lemma calc_bytes_for_bits_ok n : bytes_for_bits n <= 255 -> calc_bytes_for_bits n = Ok (bytes_for_bits n).
Proof.
  unfold calc_bytes_for_bits, bytes_for_bits. intros H.
  destruct (N.eqb_spec (n mod 8) 0) as [E|E].
  - destruct (N.leb_spec (n / 8) 255); [f_equal; lia|lia].
  - destruct (N.leb_spec (n / 8 + 1) 255); [f_equal; lia|lia].
Qed.

Lemma ser_bool_slice_appends bits : bytes_for_bits (len bits) <= 255 ->
  appends (ser_bool_slice bits) (bytes_for_bits (len bits) :: pack bits).
Proof.
  intros Hn w. unfold ser_bool_slice. fold (len bits). rewrite calc_bytes_for_bits_ok by assumption. cbn [obind]. revert w.
  exact (appends_bind (fun w => W (wr_u8 w _)) (ser_bits_loop _ bits) [_] _ (appends_u8 _) (ser_bits_loop_appends _ bits (le_n _))).
Qed.

Lemma ser_regs_loop_appends vs : appends (ser_regs_loop vs) (flat_map be vs).
Proof.
  induction vs as [|v rest IH]; [exact appends_nil|].
  exact (appends_bind (fun w => W (wr_u16_be w v)) (ser_regs_loop rest) _ _ (appends_u16_be v) IH).
Qed.

Lemma ser_u16_slice_appends vs : 2 * len vs <= 255 ->
  appends (ser_u16_slice vs) (2 * len vs :: flat_map be vs).
Proof.
  intros Hn w. unfold ser_u16_slice, calc_bytes_for_registers. fold (len vs).
  destruct (N.leb_spec (2 * len vs) 255); [|lia]. cbn [obind]. revert w.
  exact (appends_bind (fun w => W (wr_u8 w _)) (ser_regs_loop vs) [_] _ (appends_u8 _) (ser_regs_loop_appends vs)).
Qed.

(* Serialize for WriteMultiple<bool> / WriteMultiple<u16>: the same wrapper around the two slices *)
Lemma write_multiple_appends (slice : ser) limit r data : snd r <= limit -> appends slice data ->
  appends (fun w => if limit <? snd r then Err ECountTooBigForType else obind (ser_range r w) slice)
          (be (fst r) ++ be (snd r) ++ data).
Proof.
  intros Hl Hs w. destruct (N.ltb_spec limit (snd r)); [lia|]. revert w. rewrite app_assoc.
  exact (appends_bind _ _ _ _ (ser_range_appends r) Hs).
Qed.

(* The header always fits the shared buffer, so the frame is decided by the body. MBAP: transaction
   id, protocol id 0, two bytes in place of the length (patch_len writes it once the body is
   there), unit id, function code; RTU: unit id, function code, and the CRC after the body. By
   computation: the cursor is concrete up to the values of its bytes. *)
Lemma mbap_format_body tx uid fcv (body : ser) :
  frame_format EInsufficientWriteSpace Tcp tx uid fcv body =
  obind (body (wapp (wnew buffer_capacity) (be tx ++ [0; 0; 0; 0; uid; fcv]))) (fun w6 =>
  Ok (patch_len (w_out w6) ((N.of_nat (length (w_out w6) - mbap_header_length) + 1) mod 65536))).
Proof. reflexivity. Qed.

Lemma rtu_format_body tx uid fcv (body : ser) :
  frame_format EInsufficientWriteSpace Rtu tx uid fcv body =
  obind (body (wapp (wnew buffer_capacity) [uid; fcv])) (fun w3 =>
  obind (W (wr_u16_le w3 (crc (w_out w3)))) (fun w4 => Ok (w_out w4))).
Proof. reflexivity. Qed.

(* the side condition of a write, with the sizes of buffer, header and PDU unfolded *)
Ltac room := unfold wnew, wapp, buffer_capacity, max_adu_length in *; cbn [w_out w_cap length app be]; lia.

(* a PDU (function code and body) of at most max_adu_length bytes fits behind either header *)
Lemma encode_tcp_ok tx uid fcv (body : ser) bs : appends body bs -> (length (fcv :: bs) <= max_adu_length)%nat ->
  frame_format EInsufficientWriteSpace Tcp tx uid fcv body =
  Ok (be tx ++ [0; 0] ++ be (len (fcv :: bs) + 1) ++ [uid] ++ fcv :: bs).
Proof.
  cbn [length]. intros Hb Hl. rewrite mbap_format_body, Hb by room. cbn [obind].
  f_equal. unfold wapp, wnew, patch_len. cbn [w_out w_cap app be firstn skipn length Nat.sub mbap_header_length].
  unfold len. cbn [length]. rewrite (N.mod_small (N.of_nat (S (length bs)) + 1) 65536) by room.
  reflexivity.
Qed.

Lemma encode_rtu_ok tx uid fcv (body : ser) bs : appends body bs -> (length (fcv :: bs) <= max_adu_length)%nat ->
  frame_format EInsufficientWriteSpace Rtu tx uid fcv body =
  Ok (let b := uid :: fcv :: bs in b ++ [crc b mod 256; crc b / 256]).
Proof.
  cbn [length]. intros Hb Hl. rewrite rtu_format_body, Hb by room. cbn [obind].
  rewrite wr_u16_le_ok by room. reflexivity.
Qed.

Lemma encode_body_err f tx uid fcv (body : ser) e : (forall w, body w = Err e) ->
  frame_format EInsufficientWriteSpace f tx uid fcv body = Err e.
Proof. intros H. destruct f; [rewrite mbap_format_body|rewrite rtu_format_body]; now rewrite H. Qed.

Definition ref_body (c : call) : list N := tl (ref_pdu c).

Lemma ref_pdu_body c : ref_pdu c = function_of (request_of c) :: ref_body c.
Proof. destruct c; reflexivity. Qed.

Lemma ref_pdu_length c : within_limits c -> (length (ref_pdu c) <= max_adu_length)%nat.
Proof.
  unfold within_limits, max_adu_length. destruct c as [s n|s n|s n|s n|i v|i v|s vs|s vs]; cbn [within_limits_b ref_pdu]; intros Hl;
    cbn [length]; rewrite ?app_length; cbn [length be]; try lia.
  - destruct v; cbn [length]; lia.
  - (* 1968 coils are 246 bytes *)
    pose proof (pack_length vs). pose proof (bytes_for_bits_le (len vs) 246). unfold len in *. lia.
  - pose proof (len_flat_map_be vs). unfold len in *. lia.
Qed.

Lemma serialize_within c : within_limits c -> appends (serialize (request_of c)) (ref_body c).
Proof.
  unfold within_limits, ref_body. intros Hl.
  destruct c as [s n|s n|s n|s n|i v|i v|s vs|s vs]; cbn [within_limits_b request_of serialize ref_pdu tl] in *.
  - exact (ser_range_appends (s, n)).
  - exact (ser_range_appends (s, n)).
  - exact (ser_range_appends (s, n)).
  - exact (ser_range_appends (s, n)).
  - apply ser_indexed_bool_appends.
  - exact (ser_range_appends (i, v)).
  - apply (write_multiple_appends (ser_bool_slice vs) max_write_coils_count (s, len vs));
      [|apply ser_bool_slice_appends, (bytes_for_bits_le _ 255)]; unfold max_write_coils_count; cbn [snd]; lia.
  - apply (write_multiple_appends (ser_u16_slice vs) max_write_registers_count (s, len vs));
      [|apply ser_u16_slice_appends]; unfold max_write_registers_count; cbn [snd]; lia.
Qed.

Lemma serialize_over c : reaches_task c = true -> within_limits_b c = false ->
  forall w, serialize (request_of c) w = Err ECountTooBigForType.
Proof.
  destruct c as [s n|s n|s n|s n|i v|i v|s vs|s vs]; cbn [reaches_task within_limits_b request_of serialize]; try congruence;
    intros Hr Hl w; destruct (range_ok s (len vs)); cbn [andb] in *; try discriminate;
    unfold ser_write_multiple_bool, ser_write_multiple_u16, max_write_coils_count, max_write_registers_count; cbn [snd];
    (destruct (_ <? len vs) eqn:E; [reflexivity|apply N.ltb_ge in E; lia]).
Qed.

Definition ref_encode (f : framing) (tx uid : N) (c : call) : list N :=
  match f with Tcp => ref_encode_tcp tx uid c | Rtu => ref_encode_rtu uid c end.

Lemma encode_request_of f tx uid c : reaches_task c = true ->
  client_encode f tx uid (request_of c) =
  if within_limits_b c then Ok (ref_encode f tx uid c) else Err ECountTooBigForType.
Proof.
  intros Hr. unfold client_encode. destruct (within_limits_b c) eqn:Hl.
  - pose proof (serialize_within c Hl) as Ha. pose proof (ref_pdu_length c Hl) as Hb. rewrite ref_pdu_body in Hb.
    destruct f; [rewrite (encode_tcp_ok tx uid _ _ _ Ha Hb)|rewrite (encode_rtu_ok tx uid _ _ _ Ha Hb)];
      unfold ref_encode, ref_encode_tcp, ref_encode_rtu; now rewrite ref_pdu_body.
  - apply encode_body_err. now apply serialize_over.
Qed.

Theorem submit_spec f tx uid c : call_wf c ->
  match client_submit f tx uid c with
  | Ok bs => within_limits c /\ bs = ref_encode f tx uid c
  | Err e => ~ within_limits c /\ bad_request e
  | Panic => False
  end.
Proof.
  intros Hwf. unfold client_submit, within_limits. pose proof (build_spec c Hwf) as Hb.
  destruct (build c) as [r|e|]; cbn [obind]; [destruct Hb as [Hr ->]|destruct Hb as [Hr He]|exact Hb].
  - rewrite encode_request_of by assumption. destruct (within_limits_b c); split; (reflexivity || discriminate || exact I).
  - rewrite (within_reaches c Hr). split; [discriminate|exact He].
Qed.

Theorem submit_wire_spec f tx uid c :
  submit_wire f tx uid c = match client_submit f tx uid c with Ok bs => [bs] | _ => [] end.
Proof.
  unfold submit_wire, client_submit, transmit. destruct (build c) as [r| |]; cbn [obind]; try reflexivity.
  destruct (client_encode f tx uid r); reflexivity.
Qed.

Theorem submit_exact f tx uid c bs : call_wf c ->
  client_submit f tx uid c = Ok bs -> bs = ref_encode f tx uid c /\ within_limits c.
Proof. intros Hwf H. pose proof (submit_spec f tx uid c Hwf) as S. rewrite H in S. now split. Qed.

Theorem submit_total f tx uid c : call_wf c -> client_submit f tx uid c <> Panic.
Proof. intros Hwf H. pose proof (submit_spec f tx uid c Hwf) as S. now rewrite H in S. Qed.

