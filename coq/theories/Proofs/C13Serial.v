(* C13 for the serial channel: the PortState trace of every run of the serial system is legal. *)
From Coq Require Import NArith List Bool Lia.
From Rodbus Require Import Model.Retry Spec.Lifecycle Model.ClientTask Model.SerialTask Proofs.ClientBase Proofs.C13Proofs.
Import ListNotations.
Local Open Scope N_scope.
Local Arguments listens_of o : simpl nomatch.

(* a step makes at most one listener notification *)
Definition lc (r : state * list output) : Prop := (length (listens_of (snd r)) <= 1)%nat.

Lemma step_lc cfg s e : lc (step cfg s e).
Proof.
  destruct (step_seen cfg s e) as (r0 & Hpad & Hn). unfold lc. rewrite (pads_listens _ _ Hpad).
  destruct Hn as [| | | |s' p Hp Hs| | | | | | | ]; try (cbn; lia). destruct Hs as [[_ ->]|(_ & _ & ->)]; cbn; lia.
Qed.

(* the port state after the listener heard `l`.  Connecting has no image of its own (the serial task never reports it); SDisabled is
   harmless only because `port_inv` keeps `last <> LConnecting` between the steps of the serial system *)
Definition pimg (l : cstate) : pstate :=
  match l with
  | LDisabled | LConnecting => SDisabled
  | LConnected => SOpen
  | LWaitFailed d | LWaitDisc d => SWait d
  | LShutdown => SShutdown
  end.

Lemma ppath_app a l1 l2 : ppath a (l1 ++ l2) = ppath a l1 && ppath (final a l1) l2.
Proof. revert a; induction l1 as [|x l1 IH]; intros a; cbn; [reflexivity|]. rewrite IH, andb_assoc. reflexivity. Qed.
Lemma port_trace_app a b : port_trace (a ++ b) = port_trace a ++ port_trace b.
Proof. unfold port_trace. rewrite listens_app, flat_map_app. reflexivity. Qed.

Definition is_connecting (p : phase) : bool := match p with PConnecting => true | _ => false end.

Section SerialProofs.
Variable cfg : config.

Lemma crash_listens s : listens_of (snd (crash s)) = [].
Proof. apply mute_listens, mute_crash. Qed.

(* the open result: Open, or the failed-open wait, (or the task crashed in the retry strategy) *)
Lemma connect_step s ok : ph s = PConnecting ->
  ph (fst (step cfg s (EvConnect ok))) <> PConnecting /\
  (listens_of (snd (step cfg s (EvConnect ok))) = [] /\ ph (fst (step cfg s (EvConnect ok))) = PDone \/
   listens_of (snd (step cfg s (EvConnect ok))) = [LConnected] \/
   exists d, listens_of (snd (step cfg s (EvConnect ok))) = [LWaitFailed d]).
Proof.
  intros Hp. cbn [step]. rewrite Hp. destruct ok.
  - destruct (retry_call s Reset) as [[s1 d]|].
    + cbn. split; [discriminate|]. right. left. reflexivity.
    + split; [unfold crash; cbn; discriminate|]. left. split; [apply crash_listens|reflexivity].
  - unfold wait_for. destruct (retry_call s Fail) as [[s1 d]|].
    + cbn. split; [discriminate|]. right. right. exists d. reflexivity.
    + pose proof (crash_listens s) as C. destruct (crash s) as [s' out] eqn:E. cbn [fst snd app] in *.
      assert (Hd : ph s' = PDone) by (unfold crash in E; inversion E; reflexivity).
      split; [rewrite Hd; discriminate|]. left. split; [exact C|exact Hd].
Qed.

(* between two steps of the serial system the task is never in Connecting: the open result has been applied *)
Definition port_inv (x : sstate) (last : cstate) : Prop :=
  ph (ss x) <> PConnecting /\ (ph (ss x) <> PDone -> consistent (ss x) last /\ last <> LConnecting).

Lemma one_or_none {A} (l : list A) : (length l <= 1)%nat -> l = [] \/ exists y, l = [y].
Proof. destruct l as [|y [|z l]]; cbn; intros H; [left; reflexivity|right; eexists; reflexivity|lia]. Qed.

Lemma settle_open_other ok r : ph (fst r) <> PConnecting -> settle_open cfg ok r = r.
Proof. intros H. unfold settle_open. destruct (ph (fst r)); try reflexivity. congruence. Qed.
Lemma settle_open_conn ok r : ph (fst r) = PConnecting ->
  settle_open cfg ok r = (fst (step cfg (fst r) (EvConnect ok)), snd r ++ snd (step cfg (fst r) (EvConnect ok))).
Proof. intros H. unfold settle_open. rewrite H. destruct (step cfg (fst r) (EvConnect ok)). reflexivity. Qed.

Lemma port_inv_intro s1 ok last : ph s1 <> PConnecting -> (ph s1 <> PDone -> consistent s1 last /\ last <> LConnecting) ->
  port_inv {| ss := s1; open_ok := ok |} last.
Proof. intros H1 H2. split; assumption. Qed.

(* what a step of the serial system owes: the port notifications continue a legal path, the invariant holds after
   them, and (unless the task is gone) the port's last state is the image of the listener's *)
Definition port_ok (last : cstate) (x' : sstate) (o : list output) : Prop :=
  ppath (pimg last) (port_trace o) = true /\ port_inv x' (final last (listens_of o)) /\
  (ph (ss x') <> PDone -> final (pimg last) (port_trace o) = pimg (final last (listens_of o))).

(* a step of the task that does not end in Connecting: at most one notification `y`, and it is not Connecting, so its
   image continues the port path as `y` continues the listener's *)
Lemma settled_port_ok s1 o1 ok last : last <> LConnecting -> good last (s1, o1) -> lc (s1, o1) -> ph s1 <> PConnecting ->
  port_ok last {| ss := s1; open_ok := ok |} o1.
Proof.
  intros Hlast [G1 G2] LC1 Hnc1. unfold lc in LC1. cbn [fst snd] in *. unfold port_ok, port_trace.
  destruct (one_or_none _ LC1) as [E1|[y E1]]; rewrite E1 in *; cbn [final fold_left path flat_map app] in *.
  - split; [reflexivity|]. split; [|reflexivity]. apply port_inv_intro; [exact Hnc1|]. intros _. split; [exact G2|exact Hlast].
  - rewrite andb_true_r in G1.
    assert (Hy : ph s1 <> PDone -> y <> LConnecting).
    { intros Hd1 ->. unfold consistent in G2. destruct (ph s1); try congruence; try (destruct G2 as [G2 _]; discriminate). }
    split; [destruct last, y; cbn in *; try discriminate; try congruence; reflexivity|].
    split; [apply port_inv_intro; [exact Hnc1|intros Hd1; split; [exact G2|apply Hy; exact Hd1]]|].
    intros Hd1. specialize (Hy Hd1). rewrite app_nil_r. destruct y; cbn; try reflexivity; congruence.
Qed.

Lemma sstep_port x e last : port_inv x last -> ph (ss x) <> PDone -> let '(x', o) := sstep cfg x (SEnv e) in port_ok last x' o.
Proof.
  intros [Hnc Hinv] Hnd. destruct (Hinv Hnd) as [Hc Hlast]. cbn [sstep].
  pose proof (step_good cfg (ss x) (rtu_event (ss x) e) last Hc Hnd) as G. pose proof (step_lc cfg (ss x) (rtu_event (ss x) e)) as LC1.
  destruct (step cfg (ss x) (rtu_event (ss x) e)) as [s1 o1].
  destruct (is_connecting (ph s1)) eqn:Ec.
  - (* the step ends in Connecting: the port is opened at once, and the one notification was Connecting *)
    assert (Eph1 : ph s1 = PConnecting) by (destruct (ph s1); try discriminate Ec; reflexivity).
    rewrite (settle_open_conn (open_ok x) (s1, o1) Eph1). cbn [fst snd]. destruct G as [G1 G2]. unfold lc in LC1. cbn [fst snd] in *.
    assert (E1 : listens_of o1 = [LConnecting]).
    { destruct (one_or_none _ LC1) as [E1|[y E1]]; rewrite E1 in G2; unfold consistent in G2; rewrite Eph1 in G2; cbn in G2;
        destruct G2 as [G2 _]; congruence. }
    rewrite E1 in *. cbn [final fold_left path] in G1, G2. rewrite andb_true_r in G1.
    pose proof (connect_step s1 (open_ok x) Eph1) as (C1 & C2).
    assert (Hnd1 : ph s1 <> PDone) by (rewrite Eph1; discriminate).
    pose proof (step_good cfg s1 (EvConnect (open_ok x)) LConnecting G2 Hnd1) as (K1 & K2).
    destruct (step cfg s1 (EvConnect (open_ok x))) as [s2 o2]. cbn [fst snd ss] in *.
    unfold port_ok, port_trace. rewrite listens_app, E1. cbn [app flat_map port_of].
    destruct C2 as [[E2 Hd2]|[E2|[d E2]]]; rewrite E2 in *; cbn [app flat_map port_of ppath fold_left final] in *.
    + (* the strategy overflowed: the task is gone *)
      split; [reflexivity|]. split; [|intros H; contradiction]. apply port_inv_intro; [exact C1|intros H; contradiction].
    + (* opened *)
      split; [destruct last; try discriminate; try congruence; reflexivity|]. split; [|reflexivity].
      apply port_inv_intro; [exact C1|]. intros _. split; [exact K2|discriminate].
    + (* the open failed *)
      split; [destruct last; try discriminate; try congruence; reflexivity|]. split; [|reflexivity].
      apply port_inv_intro; [exact C1|]. intros _. split; [exact K2|discriminate].
  - assert (Hnc1 : ph s1 <> PConnecting) by (intros E; rewrite E in Ec; discriminate).
    rewrite (settle_open_other (open_ok x) (s1, o1) Hnc1). apply settled_port_ok; assumption.
Qed.

(* a serial run from a finished task reports nothing *)
Lemma sdone : forall es x, ph (ss x) = PDone -> port_trace (snd (srun cfg x es)) = [].
Proof.
  induction es as [|e es IH]; intros x Hd; [reflexivity|]. cbn [srun].
  destruct e as [e|ok]; cbn [sstep].
  - destruct (done_silent cfg (ss x) (rtu_event (ss x) e) Hd) as (H1 & H2 & _).
    rewrite (settle_open_other (open_ok x) (step cfg (ss x) (rtu_event (ss x) e))) by (rewrite H1; discriminate).
    destruct (step cfg (ss x) (rtu_event (ss x) e)) as [s1 o1]. cbn [fst snd] in *.
    specialize (IH {| ss := s1; open_ok := open_ok x |} H1). destruct (srun cfg _ es) as [x2 o2]. cbn [snd] in *.
    rewrite port_trace_app, IH. unfold port_trace. rewrite H2. reflexivity.
  - specialize (IH {| ss := ss x; open_ok := ok |} Hd). destruct (srun cfg _ es) as [x2 o2]. cbn [snd app] in *. exact IH.
Qed.

Theorem srun_port : forall es x last, port_inv x last -> ppath (pimg last) (port_trace (snd (srun cfg x es))) = true.
Proof.
  induction es as [|e es IH]; intros x last Hi; [reflexivity|].
  destruct (phase_done_dec (ph (ss x))) as [Hd|Hnd]; [rewrite (sdone (e :: es) x Hd); reflexivity|].
  cbn [srun]. destruct e as [e|ok].
  - pose proof (sstep_port x e last Hi Hnd) as H. destruct (sstep cfg x (SEnv e)) as [x1 o1]. destruct H as (P1 & I1 & F1).
    destruct (phase_done_dec (ph (ss x1))) as [Hd1|Hnd1].
    + pose proof (sdone es x1 Hd1) as D. destruct (srun cfg x1 es) as [x2 o2]. cbn [snd] in *. rewrite port_trace_app, D, app_nil_r. exact P1.
    + specialize (IH x1 _ I1). destruct (srun cfg x1 es) as [x2 o2]. cbn [snd] in *.
      rewrite port_trace_app, ppath_app, P1, (F1 Hnd1), IH. reflexivity.
  - cbn [sstep]. assert (I1 : port_inv {| ss := ss x; open_ok := ok |} last) by exact Hi.
    specialize (IH _ _ I1). destruct (srun cfg _ es) as [x2 o2]. cbn [snd app] in *. exact IH.
Qed.

Theorem serial_legal hn rmin rmax es :
  plegal (port_trace (init_outputs ++ snd (srun cfg (sinit hn rmin rmax) es))) = true.
Proof.
  rewrite port_trace_app. change (port_trace init_outputs) with [SDisabled]. cbn [app plegal].
  apply (srun_port es (sinit hn rmin rmax) LDisabled). split; [cbn; discriminate|]. intros _. split; [|discriminate].
  unfold consistent. cbn. auto.
Qed.

(* a serial run IS a run of the TCP system: the same outputs and the same final task state are
   produced by `run` on the event list with the open results inserted, so every theorem stated
   for all TCP event lists (C10, C12, the TCP-shaped C13) applies to the serial channel *)
Fixpoint expand (x : sstate) (es : list sevent) : list event :=
  match es with
  | [] => []
  | SSetOpen ok :: r => expand {| ss := ss x; open_ok := ok |} r
  | SEnv e0 :: r =>
      let e := rtu_event (ss x) e0 in
      let s1 := fst (step cfg (ss x) e) in
      if is_connecting (ph s1)
      then e :: EvConnect (open_ok x) :: expand {| ss := fst (step cfg s1 (EvConnect (open_ok x))); open_ok := open_ok x |} r
      else e :: expand {| ss := s1; open_ok := open_ok x |} r
  end.

Theorem serial_is_tcp_run : forall es x,
  snd (srun cfg x es) = snd (run cfg (ss x) (expand x es)) /\ ss (fst (srun cfg x es)) = fst (run cfg (ss x) (expand x es)).
Proof.
  induction es as [|e es IH]; intros x; [split; reflexivity|].
  destruct e as [e|ok].
  - cbn [srun expand sstep]. cbv zeta. destruct (step cfg (ss x) (rtu_event (ss x) e)) as [s1 o1] eqn:E1. cbn [fst].
    destruct (is_connecting (ph s1)) eqn:Ec.
    + assert (Hc : ph s1 = PConnecting) by (destruct (ph s1); try discriminate; reflexivity).
      rewrite (settle_open_conn (open_ok x) (s1, o1) Hc). cbn [fst snd run]. rewrite E1.
      destruct (step cfg s1 (EvConnect (open_ok x))) as [s2 o2]. cbn [fst snd].
      destruct (IH {| ss := s2; open_ok := open_ok x |}) as [I1 I2]. cbn [ss] in *.
      destruct (srun cfg {| ss := s2; open_ok := open_ok x |} es) as [x3 o3].
      destruct (run cfg s2 (expand {| ss := s2; open_ok := open_ok x |} es)) as [s4 o4]. cbn [fst snd] in *. subst. rewrite app_assoc. split; reflexivity.
    + assert (Hn : ph s1 <> PConnecting) by (intros E; rewrite E in Ec; discriminate).
      rewrite (settle_open_other (open_ok x) (s1, o1) Hn). cbn [run]. rewrite E1.
      destruct (IH {| ss := s1; open_ok := open_ok x |}) as [I1 I2]. cbn [ss] in *.
      destruct (srun cfg {| ss := s1; open_ok := open_ok x |} es) as [x3 o3].
      destruct (run cfg s1 (expand {| ss := s1; open_ok := open_ok x |} es)) as [s4 o4]. cbn [fst snd] in *. subst. split; reflexivity.
  - cbn [srun sstep expand]. destruct (IH {| ss := ss x; open_ok := ok |}) as [I1 I2]. cbn [ss] in *.
    destruct (srun cfg {| ss := ss x; open_ok := ok |} es) as [x3 o3]. cbn [fst snd app] in *. split; assumption.
Qed.

End SerialProofs.
