(* C08 - A denied request has no effect and is answered with exception 01.
   Each theorem is followed by Print Assumptions; the lemmas used are in Proofs/.

   The authorization handler is an ARBITRARY policy p : kind -> unit id -> (range | index) -> role
   -> bool and an arbitrary role string (its provenance from the client certificate is C09). The
   request variant -> callback/argument dispatch and the default / read-only decisions are the
   tables regenerated from server/task.rs and server/handler.rs (Gen/AuthzTable.v); the model's
   is_authorized goes through them, so these theorems are re-checked against what the code says. *)
From Coq Require Import NArith List String.
From Rodbus Require Import Base.Outcome Base.ServerTypes Model.Server Model.ServerRender Model.ServerExec Gen.AuthzTable Spec.Modbus
  Proofs.ServerProofs Proofs.ServerProps Proofs.ServerTheorems Proofs.AuthzTies.
From Rodbus Require Gen.TlsAuthz.
Import ListNotations.
Local Open Scope N_scope.

(* every well-formed request is submitted exactly once and first - before any handler call - with
   its kind, the frame's unit id, its address range or index, and the session's role *)
Theorem C08_query : forall (St : Type) (H : handler St) p role l units fr fc r, frame_ok l fr ->
  decode (f_pdu fr) = Valid fc r ->
  exists rest, log_of (handle_frame H l (AuthHandler p role) units fr)
                 = EvAuth (kind_of r) (dest_value (f_dest fr)) (arg_of r) role :: rest /\ auth_events rest = [].
Proof. exact @query. Qed.
Print Assumptions C08_query.

(* anything that is not a well-formed request is never submitted (and, by C02, reaches no handler) *)
Theorem C08_no_query : forall (St : Type) (H : handler St) p role l units fr, frame_ok l fr ->
  (forall fc r, decode (f_pdu fr) <> Valid fc r) -> log_of (handle_frame H l (AuthHandler p role) units fr) = [].
Proof.
  intros St H p role l units fr Hok Hd. destruct (handle_frame_of_ref H l (AuthHandler p role) units fr Hok) as (_ & _ & ->).
  apply ref_no_query. exact Hd.
Qed.
Print Assumptions C08_no_query.

(* deny: no point handler is invoked, no state changes, the client gets exception 01 for that
   function code (nothing on a broadcast) *)
Theorem C08_deny : forall (St : Type) (H : handler St) p role l units fr fc r, frame_ok l fr ->
  decode (f_pdu fr) = Valid fc r -> p (kind_of r) (dest_value (f_dest fr)) (arg_of r) role = false ->
  let x := handle_frame H l (AuthHandler p role) units fr in
  handler_events (log_of x) = [] /\ units_of x = units /\
  reply_of x = Ok (if dest_is_broadcast (f_dest fr) then [] else adu l (f_tx fr) (dest_value (f_dest fr)) (exception_pdu fc 1)).
Proof. exact @deny. Qed.
Print Assumptions C08_deny.

(* the veto comes before the unit lookup: a denied request for an unconfigured unit id is answered
   with exception 01 (the carve-out in C01's statement). `lookup .. = None` names the scenario; the
   reply is the same for a configured unit id (C08_deny). *)
Theorem C08_deny_unconfigured : forall (St : Type) (H : handler St) p role l units fr fc r u, frame_ok l fr ->
  decode (f_pdu fr) = Valid fc r -> f_dest fr = DUnit u -> lookup u (u_map units) = None -> p (kind_of r) u (arg_of r) role = false ->
  reply_of (handle_frame H l (AuthHandler p role) units fr) = Ok (adu l (f_tx fr) u (exception_pdu fc 1)).
Proof.
  intros St H p role l units fr fc r u Hok Hd Ed _ Hp. pose proof (deny H p role l units fr fc r Hok Hd) as D.
  rewrite Ed in D. destruct (D Hp) as (_ & _ & R). exact R.
Qed.
Print Assumptions C08_deny_unconfigured.

(* allow: exactly the behaviour without authorization (same reply, same new states, same handler calls) *)
Theorem C08_allow : forall (St : Type) (H : handler St) p role l units fr fc r, frame_ok l fr ->
  decode (f_pdu fr) = Valid fc r -> p (kind_of r) (dest_value (f_dest fr)) (arg_of r) role = true ->
  let x := handle_frame H l (AuthHandler p role) units fr in
  let y := handle_frame H l NoAuth units fr in
  reply_of x = reply_of y /\ units_of x = units_of y /\ handler_events (log_of x) = log_of y.
Proof. exact @allow. Qed.
Print Assumptions C08_allow.

(* per request: two policies that answer each request of a sequence alike (at that request's own
   query) produce the same session - replies, states, log. The outcome of request i depends on the
   policy only through its value at request i; an earlier allow never carries over. *)
Theorem C08_per_request : forall (St : Type) (H : handler St) l p p' role units frames, Forall (frame_ok l) frames ->
  Forall (same_decision p p' role) frames ->
  session H l (AuthHandler p role) units frames = session H l (AuthHandler p' role) units frames.
Proof.
  intros St H l p p' role units frames Hok Hs. rewrite !session_refines by assumption.
  rewrite (ref_per_request_session H l p p' role frames units Hs). reflexivity.
Qed.
Print Assumptions C08_per_request.

(* the built-in read-only policy (table regenerated from impl AuthorizationHandler for
   ReadOnlyAuthorizationHandler) allows every read and denies every write *)
Theorem C08_read_only : forall k, authz_read_only (kind_cb k) = if kind_is_read k then Allow else Deny.
Proof. exact read_only_table. Qed.
Print Assumptions C08_read_only.

Theorem C08_read_only_policy : forall k u arg r, read_only_policy k u arg r = kind_is_read k.
Proof. exact read_only_policy_spec. Qed.
Print Assumptions C08_read_only_policy.

(* every default method body of trait AuthorizationHandler denies *)
Theorem C08_default_deny : forall c, authz_default c = Deny.
Proof. exact default_table. Qed.
Print Assumptions C08_default_deny.

(* each request kind is dispatched to the callback of its own name *)
Theorem C08_dispatch : forall k, cb_kind (kind_cb k) = k.
Proof. exact cb_kind_cb. Qed.
Print Assumptions C08_dispatch.

(* (= C02_ffi_wrapper_own_callback) outside the session task: the C-ABI adapter calls, for each request kind, the C callback of its own name with
   the unit id and the role of this very call and keeps no state (table regenerated from
   ffi/rodbus-ffi/src/server.rs) ... *)
Theorem C08_ffi_wrapper_forwards :
  Forall forwards_faithfully Gen.FfiTables.authz_wrappers /\
  map Gen.FfiTables.aw_method Gen.FfiTables.authz_wrappers =
    ["read_coils"; "read_discrete_inputs"; "read_holding_registers"; "read_input_registers";
     "write_single_coil"; "write_single_register"; "write_multiple_coils"; "write_multiple_registers"]%string /\
  Gen.FfiTables.authz_wrapper_fields = ["inner"]%string.
Proof. exact ffi_wrapper_forwards. Qed.
Print Assumptions C08_ffi_wrapper_forwards.

(* ... and the TLS server never turns authorization off: with a handler configured a session runs under it with
   the role of the client certificate, or the connection is refused (regenerated from tcp/tls/server.rs) *)
Theorem C08_tls_role_required :
  Gen.TlsAuthz.tls_with_handler_on_role_failure = Gen.TlsAuthz.RefuseConnection /\
  Gen.TlsAuthz.tls_with_handler_session_uses_certificate_role = true /\
  Gen.TlsAuthz.tls_role_requires_exactly_one_extension = true /\ Gen.TlsAuthz.tls_without_handler_is_unauthorized_mode = true.
Proof. repeat split. Qed.
Print Assumptions C08_tls_role_required.

(* non-vacuity: read-only policy, role "op": the read is served, the write is denied with exception
   01 and reaches no handler, the next read is served again (per request) *)
Example C08_nonvacuous :
  run_model (LTcp, [(1, 1)], [mku 1 3 5 [] [] [] [] [] []], CRo [111; 112],
             [mkf (Some 1) (DUnit 1) [3; 0; 0; 0; 1]; mkf (Some 2) (DUnit 1) [6; 0; 0; 18; 52]; mkf (Some 3) (DUnit 1) [3; 0; 0; 0; 1];
              mkf (Some 4) (DUnit 7) [6; 0; 0; 18; 52]])
  = "00010000000501030207A7,000200000003018601,00030000000501030207A7,000400000003078601|au.2.1.r0.1.6F70;rh.1.0-0;au.5.1.i0.6F70;au.2.1.r0.1.6F70;rh.1.0-0;au.5.7.i0.6F70|open"%string.
Proof. vm_compute. reflexivity. Qed.
