(* C01 at full strength: the server as a whole - bytes arriving in arbitrary read chunks, the
   production reader (ReadBuffer + parser + next_frame loop), then SessionTask::handle_frame per
   frame - equals the reference: cut the stream by the framing rule alone (MBAP length field /
   RTU function code + byte count + CRC gate), apply the reference Modbus server to the frames in
   order. Composition of the C05/C06 reader refinement with the C01 session refinement.
   Each theorem is followed by Print Assumptions; the lemmas used are in Proofs/. *)
From Coq Require Import NArith List.
From Rodbus Require Base.Frame Base.ServerTypes Model.Reader Model.Server Spec.Framing Spec.Modbus
  Model.SystemServer Spec.SystemSpec Proofs.SystemProofs.
Import ListNotations.
Module F := Rodbus.Base.Frame.
Module S := Rodbus.Base.ServerTypes.
Import SystemServer SystemSpec SystemProofs.

(* TCP / TLS: every byte stream, every cut into non-empty reads, every handler machine, policy, unit map *)
Theorem C01_system_tcp : forall (St : Type) (H : S.handler St) a units s chunks fi,
  bytes s -> concat chunks = s -> Forall (fun c => c <> []) chunks ->
  server_system H S.LTcp a units chunks fi =
    (let '(replies, units', log) := ref_server_system_result H S.LTcp a units s fi in (replies, units', log, Server.SOpen),
     snd (ref_cut S.LTcp s fi)).
Proof. exact (fun St H => @server_system_refines St H S.LTcp). Qed.
Print Assumptions C01_system_tcp.

(* serial: the RTU delimiting rule and the CRC gate cut the stream *)
Theorem C01_system_rtu : forall (St : Type) (H : S.handler St) a units s chunks fi,
  bytes s -> concat chunks = s -> Forall (fun c => c <> []) chunks ->
  server_system H S.LRtu a units chunks fi =
    (let '(replies, units', log) := ref_server_system_result H S.LRtu a units s fi in (replies, units', log, Server.SOpen),
     snd (ref_cut S.LRtu s fi)).
Proof. exact (fun St H => @server_system_refines St H S.LRtu). Qed.
Print Assumptions C01_system_rtu.

(* replies, handler calls and final state do not depend on how the network segments the stream *)
Theorem C01_system_chunking_independent : forall (St : Type) (H : S.handler St) l a units c1 c2 fi,
  bytes (concat c1) -> concat c1 = concat c2 -> Forall (fun c => c <> []) c1 -> Forall (fun c => c <> []) c2 ->
  server_system H l a units c1 fi = server_system H l a units c2 fi.
Proof.
  intros St H l a units c1 c2 fi Hb Hc H1 H2.
  rewrite (server_system_refines H l a units (concat c1) c1 fi Hb eq_refl H1).
  rewrite (server_system_refines H l a units (concat c1) c2 fi Hb (eq_sym Hc) H2). reflexivity.
Qed.
Print Assumptions C01_system_chunking_independent.
