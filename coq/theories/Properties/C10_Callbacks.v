(* C10 on the submit paths: every call of a request method - through the future-style Channel, the callback-style
   CallbackSession or the C ABI - delivers exactly one completion, also when the arguments are rejected BEFORE anything
   is queued, when the queue is full and when the channel task is gone.
   Only statements, closed by `exact`, each followed by Print Assumptions. *)
From Coq Require Import List.
From Rodbus Require Import Gen.FfiTables Gen.SubmitPaths Model.Ffi Model.SubmitPaths Spec.SubmitSpec.
From Rodbus Require Proofs.SubmitPathsProofs.
Import ListNotations.
Local Open Scope string_scope.
Module P := Rodbus.Proofs.SubmitPathsProofs.

(* CallbackSession (statement order regenerated from client/channel.rs): for each of the eight request methods, for
   arguments that pass or fail the pre-queue validation, a live or dead channel task and ANY behaviour of the task on the
   command, the caller's callback is invoked exactly once, with: BadRequest when the range is rejected (nothing is
   queued), Shutdown when the task is gone, else the task's first completion (Shutdown if the task drops it). *)
Theorem C10_callback_once : forall m, In m request_methods -> forall env,
  delivered_exactly cb_out (cb_call m env)
    (Done (submit_spec result (RErr RRE_BadRequest) (RErr RRE_Shutdown) (valid env || negb (validated m)) (reaches_task env)
                       (first_completion (stask env)))).
Proof. exact P.callback_once. Qed.
Print Assumptions C10_callback_once.

(* Channel (future style): the awaited call returns that same completion *)
Theorem C10_future_once : forall m, In m request_methods -> forall env,
  fut_call m env = Some (submit_spec result (RErr RRE_BadRequest) (RErr RRE_Shutdown) (valid env || negb (validated m)) (reaches_task env)
                                     (first_completion (stask env))).
Proof. exact P.future_once. Qed.
Print Assumptions C10_future_once.

(* C ABI (Model/Ffi.v over the statement order regenerated from ffi client.rs and FfiChannel): for every call with
   non-null arguments - valid or not, over the read limit, queue accepted / full / closed, any task behaviour - the
   completion callback fires at most once, exactly once when the function returned Ok, and a call that fires nothing
   returned an error code *)
Theorem C10_ffi_once : forall rq, In rq client_calls -> forall ft, In ft future_types -> forall env,
  null_args env = [] ->
  (failing_validation env = None \/ exists w, failing_validation env = Some w /\ In (Validate w) (snd rq)) ->
  c_abi_completion_ok (match fst (ffi_call ft rq env) with FPE_Ok => true | _ => false end) (List.length (snd (ffi_call ft rq env))).
Proof. exact P.ffi_completion. Qed.
Print Assumptions C10_ffi_once.

(* the three tables cover the same eight methods *)
Theorem C10_submit_paths_cover :
  map fst callback_methods = request_methods /\ map fst future_methods = request_methods /\ map fst client_calls = request_methods.
Proof. exact P.methods_complete. Qed.
Print Assumptions C10_submit_paths_cover.

(* "Shutdown only when the task is gone" needs the task not to go by itself: every `return Shutdown` of
   TcpChannelTask::run_inner (regenerated) is guarded by Err(Shutdown) of wait_for_enabled / try_connect_and_run -
   a disable, a failed connect or a lost connection never ends the channel task *)
Theorem C10_tcp_task_ends_only_on_shutdown : exits_only_on_shutdown tcp_run_inner_exits = true /\ tcp_run_inner_exits <> [].
Proof. exact P.task_exits. Qed.
Print Assumptions C10_tcp_task_ends_only_on_shutdown.
