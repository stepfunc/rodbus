(* C04 (and the error-class clauses of C03 / C10): the error CLASS a caller sees, derived from the
   code's own conversion tables. Gen/ErrorMaps.v is regenerated on every run from the `From` impls
   of rodbus/src/error.rs (scursor ReadError / WriteError / TrailingBytes, AduParseError,
   InternalError, InvalidRange, InvalidRequest, FrameParseError, io::Error -> RequestError) and
   Gen/SessionErrors.v from SessionError::from_request_err; `class_of e` sends each error of the
   codec model through them (Proofs/ClientErrorProofs.v full_of: where the error originates in the
   code). A swapped arm in error.rs or client/task.rs therefore breaks these theorems, besides the
   correspondence (the harness prints names that are specific to the RequestError variant).
   Statements with short proofs from the lemmas of Proofs/, each followed by Print Assumptions. *)
From Coq Require Import NArith List.
From Rodbus Require Import Base.Outcome Base.ClientTypes Model.ClientRequest Spec.ClientCodecSpec Gen.SessionErrors Gen.ErrorMaps Proofs.ClientCodecProofs Proofs.ClientReplyProofs Proofs.ClientErrorProofs.
From Rodbus Require Base.Frame.
Import ListNotations.
Local Open Scope N_scope.

(* the flat error names of the model are these RequestError values of the code *)
Theorem C04_error_table :
  full_of ECountOfZero = RqBadRequest (IqBadRange IrCountOfZero) /\
  full_of EAddressOverflow = RqBadRequest (IqBadRange IrAddressOverflow) /\
  full_of ECountTooLargeForType = RqBadRequest (IqBadRange IrCountTooLargeForType) /\
  full_of ECountTooBigForU16 = RqBadRequest IqCountTooBigForU16 /\
  full_of ECountTooBigForType = RqBadRequest IqCountTooBigForType /\
  full_of EInsufficientWriteSpace = RqInternal InInsufficientWriteSpace /\
  full_of EBadByteCount = RqInternal InBadByteCount /\
  full_of EInsufficientBytes = RqBadResponse ApInsufficientBytes /\
  full_of ETrailingBytes = RqBadResponse ApTrailingBytes /\
  full_of EReplyEchoMismatch = RqBadResponse ApReplyEchoMismatch /\
  full_of EUnknownResponseFunction = RqBadResponse ApUnknownResponseFunction /\
  full_of EUnknownCoilState = RqBadResponse ApUnknownCoilState /\
  (forall ex, full_of (EException ex) = RqException).
Proof. repeat split. Qed.
Print Assumptions C04_error_table.

(* Every failure of reply decoding is RequestError::Exception (by C04_exception_only: exactly for
   a well-formed exception reply) or a BadResponse - or BadRequest(BadRange), which is what
   AddressRange::parse produces for an echoed range that is empty / overflows - never Internal,
   BadFrame or Io; and it never ends the session. *)
Theorem C04_decode_error_class : forall r pdu e, request_wf r -> handle_response r pdu = Err e ->
  (class_of e = ReException \/ class_of e = ReBadResponse \/ class_of e = ReBadRequest) /\
  from_request_err (class_of e) = None.
Proof.
  intros r pdu e Hwf H. split; [|apply codec_error_keeps_session].
  pose proof (handle_response_spec r pdu Hwf) as S. rewrite H in S.
  destruct (ref_reply r pdu); [discriminate|]. destruct (ref_exception r pdu); [injection S as ->; now left|].
  destruct S as (e' & [= <-] & Hb). destruct e; try contradiction; cbn; auto.
Qed.
Print Assumptions C04_decode_error_class.

Theorem C04_exception_class : forall e, class_of e = ReException <-> is_exception e.
Proof. intros e. destruct e; cbn; split; intros H; try discriminate; try contradiction; try exact I; reflexivity. Qed.
Print Assumptions C04_exception_class.

(* Every rejected call (C03_limits) is a BadRequest; the session goes on. *)
Theorem C04_submit_error_class : forall f tx uid c e, call_wf c -> client_submit f tx uid c = Err e ->
  class_of e = ReBadRequest /\ from_request_err (class_of e) = None.
Proof.
  intros f tx uid c e Hwf H. pose proof (submit_spec f tx uid c Hwf) as S. rewrite H in S.
  destruct S as [_ He]. destruct e; try contradiction; split; reflexivity.
Qed.
Print Assumptions C04_submit_error_class.

(* No error of construction, encoding or decoding ends the session, whatever it is. *)
Theorem C04_codec_errors_keep_session : forall e, from_request_err (class_of e) = None.
Proof. exact codec_error_keeps_session. Qed.
Print Assumptions C04_codec_errors_keep_session.

(* Every framing failure is a BadFrame and ends the session (SessionError::BadFrame); an I/O error
   is Io and ends it (SessionError::IoError). `full_of_ferr` reads the framing models' error
   vocabulary (Base/Frame.v, used by C05, C06 and the C04_system theorems) in the code's types. *)
Theorem C04_frame_error_class : forall fe,
  class_of_full (from_frame_parse_error fe) = ReBadFrame /\ from_request_err (class_of_full (from_frame_parse_error fe)) = Some SeBadFrame.
Proof. intros fe. destruct fe; split; reflexivity. Qed.
Print Assumptions C04_frame_error_class.

Theorem C04_reader_error_class : forall e, e <> Frame.InternalError ->
  class_of_full (full_of_ferr e) = ReBadFrame /\ from_request_err (class_of_full (full_of_ferr e)) = Some SeBadFrame.
Proof. intros e. destruct e; intros H; try (split; reflexivity). contradiction. Qed.
Print Assumptions C04_reader_error_class.

Theorem C04_io_error_class :
  class_of_full from_io_error = ReIo /\ from_request_err (class_of_full from_io_error) = Some SeIoError.
Proof. split; reflexivity. Qed.
Print Assumptions C04_io_error_class.

Theorem C04_other_errors_keep_session :
  from_request_err ReResponseTimeout = None /\ from_request_err ReNoConnection = None /\ from_request_err ReShutdown = None /\
  from_request_err ReException = None /\ from_request_err ReBadResponse = None /\ from_request_err ReBadRequest = None /\
  from_request_err ReInternal = None.
Proof. repeat split. Qed.
Print Assumptions C04_other_errors_keep_session.
