(* C03 - Client transmits exactly the protocol encoding of a request, or nothing.
   Statements with short proofs from the lemmas of Proofs/, each followed by Print Assumptions.

   `call` is one Channel API call with its arguments (for reads the raw public fields start/count
   of the AddressRange handed to Channel::read_* - ANY pair in u16 x u16, whether or not it went
   through AddressRange::try_from -; the value vector as given to WriteMultiple::from); `call_wf`
   says the arguments have their Rust types (u16). `client_submit f tx uid c` is the model of construction
   + Channel method + FrameWriter::format_request into the shared 260-byte buffer;
   `submit_wire` is what execute_request hands to the transport. `ref_encode` / `within_limits`
   are the oracle of Spec/ClientCodecSpec.v. Value vectors are unbounded lists. *)
From Coq Require Import NArith List Arith Lia.
From Rodbus Require Import Base.Outcome Base.ClientTypes Model.Format Model.Range Model.ClientRequest
  Model.ClientPaths Model.ClientSession Spec.ClientCodecSpec Proofs.ClientCodecProofs Proofs.PackProofs Proofs.ClientBytesProofs
  Proofs.ClientPathsProofs Proofs.ClientSessionProofs.
From Rodbus Require Model.ClientTask Spec.ClientSpec.
Import ListNotations.
Local Open Scope N_scope.

(* Whatever is transmitted is exactly the protocol encoding (and the request was within limits). *)
Theorem C03_exact : forall f tx uid c bs, call_wf c ->
  client_submit f tx uid c = Ok bs ->
  bs = match f with Tcp => ref_encode_tcp tx uid c | Rtu => ref_encode_rtu uid c end /\ within_limits c.
Proof. exact submit_exact. Qed.
Print Assumptions C03_exact.

(* Conversely every request within the limits IS transmitted (so C03_exact is not vacuous and no
   in-limit request is lost to a buffer overflow). *)
Theorem C03_complete : forall f tx uid c, call_wf c -> within_limits c ->
  client_submit f tx uid c = Ok (match f with Tcp => ref_encode_tcp tx uid c | Rtu => ref_encode_rtu uid c end).
Proof.
  intros f tx uid c Hwf Hl. pose proof (submit_spec f tx uid c Hwf) as H.
  destruct (client_submit f tx uid c); [destruct H as [_ ->]; reflexivity|destruct H; contradiction|contradiction].
Qed.
Print Assumptions C03_complete.

(* Requests outside the protocol limits (empty or overflowing range, > 2000 bits / 125 registers
   read, > 1968 coils / 123 registers written, > 65535 values) are rejected with an error and the
   transport sees nothing. *)
Theorem C03_limits : forall f tx uid c, call_wf c -> ~ within_limits c ->
  exists e, client_submit f tx uid c = Err e /\ submit_wire f tx uid c = [].
Proof.
  intros f tx uid c Hwf Hl. rewrite submit_wire_spec. pose proof (submit_spec f tx uid c Hwf) as H.
  destruct (client_submit f tx uid c) as [bs|e|]; [destruct H; contradiction|eauto|contradiction].
Qed.
Print Assumptions C03_limits.

(* Exactly one frame or nothing reaches the transport, according to the result. *)
Theorem C03_one_frame_or_nothing : forall f tx uid c,
  submit_wire f tx uid c = match client_submit f tx uid c with Ok bs => [bs] | _ => [] end.
Proof. exact submit_wire_spec. Qed.
Print Assumptions C03_one_frame_or_nothing.

(* No frame longer than 260 bytes (TCP/TLS) or 256 bytes (serial) is ever emitted. *)
Theorem C03_size : forall f tx uid c bs, call_wf c -> client_submit f tx uid c = Ok bs ->
  (length bs <= match f with Tcp => 260 | Rtu => 256 end)%nat.
Proof.
  intros f tx uid c bs Hwf H. destruct (submit_exact f tx uid c bs Hwf H) as [-> Hl]. pose proof (ref_pdu_length c Hl) as Hp.
  unfold Consts.max_adu_length in Hp. destruct f; unfold ref_encode, ref_encode_tcp, ref_encode_rtu;
    cbn [length app be]; rewrite ?app_length; cbn [length]; lia.
Qed.
Print Assumptions C03_size.

(* What is emitted is a string of bytes (every element below 256), for u16 tx ids and u8 unit ids. *)
Theorem C03_bytes : forall f tx uid c bs, call_wf c -> tx < 65536 -> uid < 256 ->
  client_submit f tx uid c = Ok bs -> Forall is_u8 bs.
Proof. intros f tx uid c bs Hwf Htx Hu H. destruct (submit_exact f tx uid c bs Hwf H) as [-> Hl]. now apply ref_encode_bytes. Qed.
Print Assumptions C03_bytes.

(* Construction and encoding never panic. *)
Theorem C03_total : forall f tx uid c, call_wf c -> client_submit f tx uid c <> Panic.
Proof. exact submit_total. Qed.
Print Assumptions C03_total.

(* ---- the three submit paths (Model/ClientPaths.v): async Channel, deprecated CallbackSession,
   FfiChannel (the C bindings). For every call they queue the SAME request - or all reject -, so
   the bytes on the wire are those of `client_submit` whichever API is used; all theorems above
   therefore hold for each path. ---- *)
Theorem C03_paths_agree : forall p q f tx uid c,
  path_encode p f tx uid c = path_encode q f tx uid c /\ path_wire p f tx uid c = path_wire q f tx uid c.
Proof. intros p q f tx uid c. now rewrite !path_encode_spec, !path_wire_spec. Qed.
Print Assumptions C03_paths_agree.

Theorem C03_path_wire : forall p f tx uid c, path_wire p f tx uid c = submit_wire f tx uid c.
Proof. exact path_wire_spec. Qed.
Print Assumptions C03_path_wire.

(* what each path does with a call: queue exactly the request `build` constructs, or - exactly when
   `build` fails with e - signal the rejection as the code does (rejection_of, below) *)
Theorem C03_path_submit : forall p c,
  submit_via p c = match build c with
                   | Ok r => Queued r
                   | Err e => Rejected (rejection_of p c e)
                   | Panic => Rejected {| rj_returned := None; rj_completion := None |}
                   end.
Proof. exact submit_via_spec. Qed.
Print Assumptions C03_path_submit.

(* The rejection signals, stated as what the code does: the error is returned by the call
   (Channel: as the value of the future; Ffi: as FfiChannelError::BadRange; WriteMultiple::from) or
   handed to the callback (CallbackSession reads). Two asymmetries of FfiChannel: read_bits checks
   the range BEFORE it builds its promise, so the completion callback of a rejected read_coils /
   read_discrete_inputs is never invoked (the only signal is the return value); read_registers
   builds the promise first, so a rejected call returns the error AND its dropped promise invokes
   the callback with Shutdown. *)
Theorem C03_rejection_signals : forall p c e,
  rejection_of p c e =
  match c with
  | CReadCoils _ _ | CReadDiscreteInputs _ _ =>
      match p with
      | ViaChannel | ViaFfi => {| rj_returned := Some e; rj_completion := None |}
      | ViaCallback => {| rj_returned := None; rj_completion := Some (CErr e) |}
      end
  | CReadHoldingRegisters _ _ | CReadInputRegisters _ _ =>
      match p with
      | ViaChannel => {| rj_returned := Some e; rj_completion := None |}
      | ViaCallback => {| rj_returned := None; rj_completion := Some (CErr e) |}
      | ViaFfi => {| rj_returned := Some e; rj_completion := Some CShutdown |}
      end
  | _ => {| rj_returned := Some e; rj_completion := None |}
  end.
Proof. reflexivity. Qed.
Print Assumptions C03_rejection_signals.

Example C03_ffi_read_coils_rejection_has_no_callback :
  submit_via ViaFfi (CReadCoils 0 2001) = Rejected {| rj_returned := Some ECountTooLargeForType; rj_completion := None |}.
Proof. vm_compute. reflexivity. Qed.
Example C03_ffi_read_registers_rejection_calls_back_with_shutdown :
  submit_via ViaFfi (CReadHoldingRegisters 0 126) = Rejected {| rj_returned := Some ECountTooLargeForType; rj_completion := Some CShutdown |}.
Proof. vm_compute. reflexivity. Qed.

(* ---- C03 over a whole session (Model/ClientSession.v): calls executed one after the other on a
   connected, enabled channel, through any mix of the three APIs. The wire log is the Spec's
   ref_session_wire: exactly the frames of the calls within the limits, in order; the i-th request
   that REACHES THE TASK carries transaction id i mod 65536. What the code does with ids: the task
   takes the id (TxId::next) before it formats the frame, so a write-multiple request that could be
   constructed but exceeds its function's limit consumes an id although nothing is sent
   (Spec reaches_task); a call rejected by the API before queueing consumes none. The counter is
   the task model's (C11_txid: the k-th request taken from the queue is stamped k mod 65536). ---- *)
Theorem C03_session_wire : forall f calls, Forall (fun x => call_wf (snd x)) calls ->
  session_wire f 0 calls = ref_session_wire (is_tcp f) 0 (strip calls).
Proof. exact session_wire_from_start. Qed.
Print Assumptions C03_session_wire.

(* ... from any point of a session on (k requests have reached the task before), without bound on k *)
Theorem C03_session_wire_from : forall f calls k, Forall (fun x => call_wf (snd x)) calls ->
  session_wire f (k mod 65536) calls = ref_session_wire (is_tcp f) k (strip calls).
Proof. exact session_wire_ref. Qed.
Print Assumptions C03_session_wire_from.

Theorem C03_session_ids : forall k,
  ClientTask.txid_next (k mod 65536) = ((k + 1) mod 65536, ClientSpec.txid_spec k).
Proof. exact txid_next_mod. Qed.
Print Assumptions C03_session_ids.

(* a call reaches the task (and takes an id) iff its request can be constructed *)
Theorem C03_reaches_task : forall c, call_wf c ->
  match build c with Ok _ => reaches_task c = true | Err _ => reaches_task c = false | Panic => False end.
Proof. intros c Hwf. pose proof (build_spec c Hwf) as H. destruct (build c); tauto. Qed.
Print Assumptions C03_reaches_task.

(* which API submits each call does not matter for the wire log *)
Theorem C03_session_paths : forall f calls calls' v,
  map (fun x => (snd (fst x), snd x)) calls = map (fun x => (snd (fst x), snd x)) calls' ->
  session_wire f v calls = session_wire f v calls'.
Proof. exact session_wire_paths. Qed.
Print Assumptions C03_session_paths.

(* non-vacuity: read (id 0), 1969 coils (constructible, over the limit: takes id 1, nothing sent),
   2001 coils read via FfiChannel (rejected before queueing: no id), read via callback API (id 2) *)
Example C03_session_example :
  session_wire Tcp 0 [(ViaChannel, 1, CReadHoldingRegisters 16 2); (ViaChannel, 1, CWriteMultipleCoils 0 (repeat true 1969));
                      (ViaFfi, 1, CReadCoils 0 2001); (ViaCallback, 9, CReadCoils 7 3)]
  = [[0;0; 0;0; 0;6; 1; 3; 0;16; 0;2]; [0;2; 0;0; 0;6; 9; 1; 0;7; 0;3]].
Proof. vm_compute. reflexivity. Qed.

(* ---- the COMPLETE byte stream of a connection, with a peer and a transport (Model/ClientSession.v
   session_stream: execute_request = format, ONE write bounded by the request's timeout BEFORE the
   receive loop, then the loop, which never writes). Whatever the peer sends while a request is in
   flight - stale or foreign transaction ids, duplicates, partial replies, nothing - the stream is
   the Spec's ref_session_stream: one serialisation per accepted call, in order, nothing else. A
   frame the transport did not take within the timeout appears as a PREFIX of its encoding and is
   the LAST thing on the connection (Io(TimedOut) ends the session); nothing follows a lost
   connection. ---- *)
Theorem C03_session_stream : forall f calls k, Forall (fun x => call_wf (snd (fst (fst x)))) calls ->
  session_stream f (k mod 65536) calls = ref_session_stream (is_tcp f) k (strip_fates calls).
Proof. exact session_stream_ref. Qed.
Print Assumptions C03_session_stream.

(* a frame with another transaction id arriving while a request waits changes nothing on the wire *)
Theorem C03_session_stream_peer_independent : forall f v pre p uid c fate evs1 evs2 post,
  session_stream f v (pre ++ (p, uid, c, fate, evs1 ++ RxSkip :: evs2) :: post) =
  session_stream f v (pre ++ (p, uid, c, fate, evs1 ++ evs2) :: post).
Proof. exact session_stream_peer_independent. Qed.
Print Assumptions C03_session_stream_peer_independent.

(* no stall, no lost connection: the stream is the concatenation of the frames of session_wire *)
Theorem C03_session_stream_concat : forall f calls v,
  Forall (fun x => snd (fst x) = TxAll /\ rx_loses_connection (snd x) = false) calls ->
  session_stream f v calls = concat (session_wire f v (map (fun x => fst (fst x)) calls)).
Proof. exact session_stream_concat. Qed.
Print Assumptions C03_session_stream_concat.

(* a partial frame is only ever followed by the connection being closed, never by another frame *)
Theorem C03_partial_frame_is_last : forall (tcp : bool) (uid : N) (c : call) (j : nat) pre k post,
  within_limits_b c = true ->
  (forall t, (j < length (if tcp then ref_encode_tcp t uid c else ref_encode_rtu uid c))%nat) ->
  ref_session_stream tcp k (pre ++ (uid, c, FateCut j) :: post) = ref_session_stream tcp k (pre ++ [(uid, c, FateCut j)]).
Proof. exact ref_stream_cut_is_last. Qed.
Print Assumptions C03_partial_frame_is_last.

Example C03_stream_example :
  session_stream Tcp 0 [(ViaChannel, 1, CReadHoldingRegisters 16 2, TxAll, [RxSkip; RxSkip; RxReply]);
                        (ViaChannel, 1, CReadHoldingRegisters 16 1, TxCut 5, []);
                        (ViaChannel, 1, CReadCoils 0 1, TxAll, [RxReply])]
  = [0;0; 0;0; 0;6; 1; 3; 0;16; 0;2] ++ [0;1; 0;0; 0].
Proof. vm_compute. reflexivity. Qed.

(* The Spec's coil packing, stated bitwise: coil k is bit (k mod 8) of byte (k / 8) - LSB first -,
   every padding bit is 0 (k beyond the vector reads `false`), and there are ceil(n/8) bytes. *)
Theorem C03_pack_lsb_first : forall bits k,
  N.testbit (nth (k / 8)%nat (pack bits) 0) (N.of_nat (k mod 8)%nat) = nth k bits false.
Proof. exact pack_bit. Qed.
Print Assumptions C03_pack_lsb_first.

Theorem C03_pack_length : forall bits, len (pack bits) = bytes_for_bits (len bits).
Proof. exact pack_length. Qed.
Print Assumptions C03_pack_length.

(* AddressRange::try_from accepts exactly the non-empty ranges inside the 16 bit address space,
   for all 2^32 constructor arguments (arithmetic, no enumeration). *)
Theorem C03_range_total : forall start count, start < 65536 -> count < 65536 ->
  (try_from start count = inr (start, count) <-> 1 <= count /\ start + count <= 65536).
Proof. exact try_from_total. Qed.
Print Assumptions C03_range_total.

(* non-vacuity: the standard's write-multiple-coils example (10 coils from address 19: CD 01) and
   the largest frames *)
Example C03_example_coils :
  client_submit Tcp 1 17 (CWriteMultipleCoils 19 [true;false;true;true;false;false;true;true;true;false])
  = Ok [0;1; 0;0; 0;9; 17; 15; 0;19; 0;10; 2; 205;1].
Proof. vm_compute. reflexivity. Qed.
Example C03_example_max_tcp :
  omap (@length N) (client_submit Tcp 65535 255 (CWriteMultipleCoils 0 (repeat true 1968))) = Ok 259%nat.
Proof. vm_compute. reflexivity. Qed.
Example C03_example_max_rtu :
  omap (@length N) (client_submit Rtu 0 1 (CWriteMultipleRegisters 65413 (repeat 65535 123))) = Ok 255%nat.
Proof. vm_compute. reflexivity. Qed.
Example C03_example_over_limit :
  client_submit Tcp 0 1 (CWriteMultipleCoils 0 (repeat true 1969)) = Err ECountTooBigForType.
Proof. vm_compute. reflexivity. Qed.
(* AddressRange has public fields, so Channel::read_* can be handed ANY (start, count) pair;
   limited_count validates it (finding F10): an empty or overflowing range is rejected before
   anything is queued - these are instances of C03_limits. *)
Example C03_empty_range_literal_is_rejected :
  client_submit Tcp 0 1 (CReadCoils 0 0) = Err ECountOfZero /\ submit_wire Tcp 0 1 (CReadCoils 0 0) = [].
Proof. vm_compute. split; reflexivity. Qed.
Example C03_overflowing_range_literal_is_rejected :
  client_submit Tcp 1 1 (CReadHoldingRegisters 65535 10) = Err EAddressOverflow
  /\ submit_wire Rtu 1 1 (CReadHoldingRegisters 65535 10) = [].
Proof. vm_compute. split; reflexivity. Qed.
