(* C03 for C callers: requests submitted through the extern "C" layer (ffi/rodbus-ffi/src/client.rs
   rodbus_client_channel_*, Model/ClientCAbi.v) put on the wire exactly the protocol encoding of
   the call - in particular a write-multiple call transmits the values its caller-owned list
   (rodbus_bit_list / rodbus_register_list) holds AT CALL TIME, also when the same list object is
   used for several calls and grows in between. How each C function takes its list is regenerated
   into Gen/FfiTables.v `list_args`; the theorems are re-checked against it.
   Each statement is followed by Print Assumptions. *)
From Coq Require Import NArith List String.
From Rodbus Require Import Base.Outcome Base.ClientTypes Model.Format Model.ClientRequest
  Model.ClientCAbi Spec.ClientCodecSpec Proofs.ClientSessionProofs Proofs.ClientCAbiProofs.
Import ListNotations.
Local Open Scope N_scope.

(* every C-ABI request function queues exactly the request the Channel API constructs for the same
   arguments, or nothing - so C03_exact / C03_limits / C03_size / C03_paths_agree carry over to it *)
Theorem C03_cabi_queues_the_same_request : forall c, cabi_queued c = match build c with Ok r => Some r | _ => None end.
Proof. exact cabi_queued_spec. Qed.
Print Assumptions C03_cabi_queues_the_same_request.

(* the regenerated table says: both write-multiple functions borrow the caller's list and clone its values *)
Theorem C03_cabi_lists_kept : list_kept "write_multiple_coils" = true /\ list_kept "write_multiple_registers" = true.
Proof. exact lists_kept. Qed.
Print Assumptions C03_cabi_lists_kept.

(* a caller-owned list through ANY sequence of add / write steps (steps: inl values = add them,
   inr (unit, start) = one write call): the wire log of the connection is the Spec's - the i-th
   write call that reaches the task carries transaction id i and the encoding of everything added so far *)
Theorem C03_cabi_coil_list : forall f steps,
  Forall (fun st => match st with inl _ => True | inr (uid, start) => start < 65536 end) steps ->
  cabi_coil_list_wire f steps = ref_session_wire (is_tcp f) 0 (ref_list_calls CWriteMultipleCoils [] steps).
Proof.
  intros f steps Hall. unfold cabi_coil_list_wire. rewrite (proj1 lists_kept).
  apply (cabi_list_wire_ref f CWriteMultipleCoils (fun _ => True)); auto.
Qed.
Print Assumptions C03_cabi_coil_list.

Theorem C03_cabi_register_list : forall f steps,
  Forall (fun st => match st with inl vs => Forall is_u16 vs | inr (uid, start) => start < 65536 end) steps ->
  cabi_register_list_wire f steps = ref_session_wire (is_tcp f) 0 (ref_list_calls CWriteMultipleRegisters [] steps).
Proof.
  intros f steps Hall. unfold cabi_register_list_wire. rewrite (proj2 lists_kept).
  apply (cabi_list_wire_ref f CWriteMultipleRegisters (Forall is_u16)); auto.
  - intros start l Hs Hl. split; assumption.
  - intros a b Ha Hb. apply Forall_app. split; assumption.
Qed.
Print Assumptions C03_cabi_register_list.

(* non-vacuity: fill [1;2], write, append 3, write again: the second frame carries all three values *)
Example C03_cabi_list_example :
  cabi_register_list_wire Tcp [inl [1; 2]; inr (9, 16); inl [3]; inr (9, 16)]
  = [[0;0; 0;0; 0;11; 9; 16; 0;16; 0;2; 4; 0;1; 0;2]; [0;1; 0;0; 0;13; 9; 16; 0;16; 0;3; 6; 0;1; 0;2; 0;3]].
Proof. vm_compute. reflexivity. Qed.
