(* C19 at system level: the C-ABI point database behind the verified server core.

   Model/FfiServer.v instantiates the application interface of the server core (Base/ServerTypes.v `handler`,
   for which C01 / C02 / C17 are proved for EVERY handler state machine) with the RequestHandlerWrapper of
   ffi/rodbus-ffi/src/server.rs: unit state = (Database, application state), reads from the four maps,
   writes through the application's C callbacks (ARBITRARY functions W). The statements below are corollaries
   of the refinement lemmas behind C01 (frame, session, byte stream) and of C19_read_exception_iff &c.
   `abs d t` is the partial function the map of type t denotes (Proofs/DatabaseProofs.v); `read_pdu` is the
   Spec-side response (Spec/FfiServerSpec.v over Spec/MapSpec.v and Spec/Modbus.v).
   Only statements, closed by `exact`, each followed by Print Assumptions. *)
From Coq Require Import NArith List.
From Rodbus Require Import Base.Outcome Base.ServerTypes Model.Server Spec.Modbus Proofs.ServerProofs Proofs.ServerProps Spec.FfiServerSpec Model.FfiServerDefs.
From Rodbus Require Model.Database Proofs.DatabaseProofs Model.FfiServer Proofs.FfiServerSystemProofs Model.SystemServer Spec.SystemSpec.
Import ListNotations.
Local Open Scope N_scope.

Module P := Rodbus.Proofs.FfiServerSystemProofs.
Notation abs := DatabaseProofs.abs.
Notation ffi_handler := FfiServer.ffi_handler.
Notation database := Database.database.
Notation c_write_handler := FfiServer.c_write_handler.

(* A C-ABI device map holds ONE RequestHandlerWrapper (one Database) per unit id - rodbus_device_map_add_endpoint
   creates the object and refuses a unit id twice - so in the core's `ucfg` (unit id -> handler object -> state) the
   natural configuration is Model/FfiServerDefs.device_map (index = unit id, no sharing). The theorems below hold for
   ANY ucfg; `h` is the handler object the addressed unit id maps to and (d, app) its database and application state.

   ONE FRAME, any link (TCP/TLS or serial), any application W, any unit map, any authorization: a permitted,
   well-formed read request (any of the four read functions) addressed to a served unit is answered with ONE
   ADU echoing transaction id and unit id whose PDU is: the values of the addressed points in ascending address
   order (bits packed LSB first / registers big-endian) when every point of the range is present in that unit's
   database, exception 02 otherwise; the database is unchanged. *)
Theorem C19_system_read_frame : forall (A : Type) (W : c_write_handler A) l a (units : ucfg (database * A)) fr u h d app fc r t s n,
  frame_ok l fr -> f_dest fr = DUnit u -> lookup u (u_map units) = Some h -> u_store units h = (d, app) ->
  decode (f_pdu fr) = Valid fc r -> read_target r = Some (t, s, n) -> fst (authorize a u r) = true ->
  let x := handle_frame (ffi_handler W) l a units fr in
  reply_of x = Ok (adu l (f_tx fr) u (read_pdu fc t (abs d t) s n)) /\
  u_map (units_of x) = u_map units /\ forall k, u_store (units_of x) k = u_store units k.
Proof. exact P.system_read_frame. Qed.
Print Assumptions C19_system_read_frame.

(* C19_read_exception_iff lifted to wire bytes: the reply is an exception reply iff the read touches an absent
   point, and then the code is 02 *)
Theorem C19_system_read_exception_iff : forall (A : Type) (W : c_write_handler A) l a (units : ucfg (database * A)) fr u h d app fc r t s n e,
  frame_ok l fr -> f_dest fr = DUnit u -> lookup u (u_map units) = Some h -> u_store units h = (d, app) ->
  decode (f_pdu fr) = Valid fc r -> read_target r = Some (t, s, n) -> fst (authorize a u r) = true ->
  (reply_of (handle_frame (ffi_handler W) l a units fr) = Ok (adu l (f_tx fr) u (exception_pdu fc e)) <->
   e = 2 /\ exists k, (k < N.to_nat n)%nat /\ abs d t (s + N.of_nat k) = None).
Proof. exact P.system_read_exception_iff. Qed.
Print Assumptions C19_system_read_exception_iff.

(* ... and when every point is present the reply carries exactly their values *)
Theorem C19_system_read_present : forall (A : Type) (W : c_write_handler A) l a (units : ucfg (database * A)) fr u h d app fc r t s n,
  frame_ok l fr -> f_dest fr = DUnit u -> lookup u (u_map units) = Some h -> u_store units h = (d, app) ->
  decode (f_pdu fr) = Valid fc r -> read_target r = Some (t, s, n) -> fst (authorize a u r) = true ->
  (forall k, (k < N.to_nat n)%nat -> abs d t (s + N.of_nat k) <> None) ->
  exists vs, map Some vs = map (fun k => abs d t (s + N.of_nat k)) (seq 0 (N.to_nat n)) /\
             reply_of (handle_frame (ffi_handler W) l a units fr) = Ok (adu l (f_tx fr) u (values_pdu fc t vs)).
Proof. exact P.system_read_present. Qed.
Print Assumptions C19_system_read_present.

(* A CONNECTION: in the code model of a session, the k-th frame being such a read of a unit served at that point
   (units_before = the unit map after the first k frames, i.e. after every earlier write callback): the k-th
   reply is that answer, computed from the database the unit holds at that point; nothing changes. *)
Theorem C19_system_read_session : forall (A : Type) (W : c_write_handler A) l a (units : ucfg (database * A)) frames k fr u h d app fc r t s n,
  Forall (frame_ok l) frames -> nth_error frames k = Some fr ->
  f_dest fr = DUnit u -> lookup u (u_map (units_before (ffi_handler W) l a units frames k)) = Some h ->
  u_store (units_before (ffi_handler W) l a units frames k) h = (d, app) ->
  decode (f_pdu fr) = Valid fc r -> read_target r = Some (t, s, n) -> fst (authorize a u r) = true ->
  nth_error (replies_of (session (ffi_handler W) l a units frames)) k = Some (adu l (f_tx fr) u (read_pdu fc t (abs d t) s n)) /\
  u_map (units_before (ffi_handler W) l a units frames (S k)) = u_map (units_before (ffi_handler W) l a units frames k) /\
  forall j, u_store (units_before (ffi_handler W) l a units frames (S k)) j = u_store (units_before (ffi_handler W) l a units frames k) j.
Proof. exact P.system_read_session. Qed.
Print Assumptions C19_system_read_session.

(* THE SERVER AS A WHOLE, byte level: ANY byte stream bs arriving in ANY non-empty read chunks, through the
   production reader (ReadBuffer + MBAP / RTU parser) into the session task: the frames are those the framing rule
   alone cuts from bs, and for every k-th of them that is a permitted read of a served unit, the k-th reply the
   server writes is the database's answer. *)
Theorem C19_system_read : forall (A : Type) (W : c_write_handler A) l a (units : ucfg (database * A)) bs chunks fi k fr u h d app fc r t s n,
  Forall (fun b => b < 256) bs -> List.concat chunks = bs -> Forall (fun c => c <> []) chunks ->
  let frames := P.cut_frames l bs fi in
  nth_error frames k = Some fr ->
  f_dest fr = DUnit u -> lookup u (u_map (units_before (ffi_handler W) l a units frames k)) = Some h ->
  u_store (units_before (ffi_handler W) l a units frames k) h = (d, app) ->
  decode (f_pdu fr) = Valid fc r -> read_target r = Some (t, s, n) -> fst (authorize a u r) = true ->
  nth_error (replies_of (fst (SystemServer.server_system (ffi_handler W) l a units chunks fi))) k
    = Some (adu l (f_tx fr) u (read_pdu fc t (abs d t) s n)) /\
  u_map (units_before (ffi_handler W) l a units frames (S k)) = u_map (units_before (ffi_handler W) l a units frames k) /\
  forall j, u_store (units_before (ffi_handler W) l a units frames (S k)) j = u_store (units_before (ffi_handler W) l a units frames k) j.
Proof. exact P.system_read_stream. Qed.
Print Assumptions C19_system_read.

(* the framing rule: cut_frames is the reference cut of the byte stream (Spec/Framing.v), nothing else *)
Theorem C19_system_frames_are_the_reference_cut : forall l bs fi,
  P.cut_frames l bs fi = map SystemServer.to_server_frame (fst (SystemSpec.ref_cut l bs fi)).
Proof. exact (fun l bs fi => eq_refl). Qed.
Print Assumptions C19_system_frames_are_the_reference_cut.

(* Multi-drop discipline inherited from C17 (NoAuth is the only configuration of a serial server): a C-ABI server
   answers only frames addressed to a unit id of its device map ... *)
Theorem C19_system_silent : forall (A : Type) (W : c_write_handler A) l (units : ucfg (database * A)) fr, frame_ok l fr ->
  reply_of (handle_frame (ffi_handler W) l NoAuth units fr) <> Ok [] -> exists u, f_dest fr = DUnit u /\ lookup u (u_map units) <> None.
Proof. exact P.ffi_silent. Qed.
Print Assumptions C19_system_silent.

(* ... and a broadcast read (or a malformed / unsupported broadcast) touches no database *)
Theorem C19_system_broadcast_other : forall (A : Type) (W : c_write_handler A) l (units : ucfg (database * A)) fr, frame_ok l fr ->
  f_dest fr = DBroadcast -> (forall fc r, decode (f_pdu fr) = Valid fc r -> is_write r = false) ->
  let x := handle_frame (ffi_handler W) l NoAuth units fr in reply_of x = Ok [] /\ log_of x = [] /\ units_of x = units.
Proof. exact P.ffi_broadcast_other. Qed.
Print Assumptions C19_system_broadcast_other.

(* a request addressed to a unit id acts on exactly the handler object (database) that unit id maps to; every other
   database is untouched (C17_unit_effect inherited) *)
Theorem C19_system_unit_effect : forall (A : Type) (W : c_write_handler A) l (units : ucfg (database * A)) fr fc r u h, frame_ok l fr ->
  f_dest fr = DUnit u -> lookup u (u_map units) = Some h -> decode (f_pdu fr) = Valid fc r ->
  let x := handle_frame (ffi_handler W) l NoAuth units fr in
  u_map (units_of x) = u_map units /\
  u_store (units_of x) h = fst (fst (ref_exec (ffi_handler W) fc h (u_store units h) r)) /\
  (forall k, k <> h -> u_store (units_of x) k = u_store units k).
Proof. exact P.ffi_unit_effect. Qed.
Print Assumptions C19_system_unit_effect.
