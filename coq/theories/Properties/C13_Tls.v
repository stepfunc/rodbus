(* C13 read for TLS channels: the expected listener paths of Spec/TlsLifecycleSpec.v are paths of C13's own automaton
   (Spec/Lifecycle.v), whatever delays the wait states carry; and what the Spec demands of a TLS channel.
   Statements, each followed by Print Assumptions; the lemmas they need are in Proofs/TlsLifecycleProofs.v. *)
From Coq Require Import NArith List Bool.
From Rodbus Require Import Spec.Lifecycle Spec.TlsLifecycleSpec Proofs.TlsLifecycleProofs.
Import ListNotations.

(* every listener path with the expected kinds is legal for C13 and ends with its only Shutdown *)
Theorem C13_Tls_expected_is_legal : forall l p, map kind_of p = expected_path l -> legal p = true /\ shutdown_last p = true.
Proof.
  intros l [|x p] H; [discriminate H|]. injection H as Hx Hp. destruct x; try discriminate Hx. cbn [legal shutdown_last].
  rewrite path_kinds, shutdown_last_kinds, Hp. now apply expected_ok.
Qed.
Print Assumptions C13_Tls_expected_is_legal.

(* Connected is announced only for attempts whose handshake was completed: as many times as there are such attempts
   before the channel is shut down *)
Theorem C13_Tls_connected_only_after_handshake : forall l,
  length (filter (lkind_eqb KConnected) (expected_path l)) = established_before_shutdown l.
Proof. intros l. unfold expected_path. cbn [filter lkind_eqb]. apply expected_connected. Qed.
Print Assumptions C13_Tls_connected_only_after_handshake.

(* a shutdown while the handshake is pending: Shutdown directly follows that Connecting, and nothing follows it *)
Theorem C13_Tls_shutdown_from_handshake : forall pre r,
  exists q, expected_path (pre ++ AHandshakePending MShutdown :: r) = q ++ [KConnecting; KShutdown].
Proof.
  intros pre r. destruct (expected_shutdown_pending pre r) as [q E]. exists (KDisabled :: q). unfold expected_path. now rewrite E.
Qed.
Print Assumptions C13_Tls_shutdown_from_handshake.

(* the verdict function accepts exactly the legal paths of the expected kinds *)
Theorem C13_Tls_judge : forall l p, judge l p = true <-> map kind_of p = expected_path l.
Proof.
  intros l p. unfold judge. split.
  - intros H. apply andb_true_iff in H. destruct H as [_ H]. now apply kinds_eqb_eq.
  - intros H. destruct (C13_Tls_expected_is_legal l p H) as [L S]. rewrite L, S. now apply kinds_eqb_eq.
Qed.
Print Assumptions C13_Tls_judge.

Example C13_Tls_nonvacuous :
  judge [ARefused; AHandshakePending MRequest; AEstablished true; AHandshakePending MDisable; AHandshakeFails]
        [LDisabled; LConnecting; LWaitFailed 20; LConnecting; LWaitFailed 40; LConnecting; LConnected; LWaitDisc 20;
         LConnecting; LDisabled; LConnecting; LWaitFailed 20; LConnecting; LShutdown] = true /\
  judge [AHandshakeFails] [LDisabled; LConnecting; LConnected; LWaitFailed 20; LConnecting; LShutdown] = false /\
  judge [AHandshakePending MShutdown] [LDisabled; LConnecting; LWaitFailed 20; LShutdown] = false.
Proof. vm_compute. repeat split. Qed.
