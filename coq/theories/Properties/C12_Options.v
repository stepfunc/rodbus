(* C12 - the timeout limit reaches the client task: the ClientOptions builder.
   Statements, each followed by Print Assumptions; the lemmas about calls and chains are in Proofs/OptionsProofs.v.

   `max_response_timeouts(Some n)` is the only public way to switch the "N timeouts in a row drop the connection"
   rule on (C12_counter, C12_counter_in_task and C12_limit_drop_closes are about a task that HAS the limit).  ClientOptions is a by-value builder: every
   method is `Self { field, ..base }`.  Gen/ClientOptions.v records, for every public method, the field it assigns
   and the struct-update base (self or default); Model/OptionsBuilder.v executes that table; Spec/OptionsSpec.v is
   the documented behaviour, written by setter / option NAME.  `cs` ranges over ALL chains of calls. *)
From Coq Require Import NArith List String Permutation.
From Rodbus Require Import Gen.ClientOptions Spec.OptionsSpec Model.OptionsBuilder Proofs.OptionsProofs.
Import ListNotations.

(* a call sets its field to the argument ... *)
Theorem C12_builder_sets : forall o b v, apply_builder o (b, v) (builder_field b) = v.
Proof. exact apply_sets. Qed.
Print Assumptions C12_builder_sets.

(* ... and preserves every other field *)
Theorem C12_builder_preserves_the_others : forall o b v f, f <> builder_field b -> apply_builder o (b, v) f = o f.
Proof. exact apply_preserves. Qed.
Print Assumptions C12_builder_preserves_the_others.

(* calls on distinct fields commute ... *)
Theorem C12_builder_calls_commute : forall o b1 v1 b2 v2, builder_field b1 <> builder_field b2 ->
  forall f, apply_builder (apply_builder o (b1, v1)) (b2, v2) f = apply_builder (apply_builder o (b2, v2)) (b1, v1) f.
Proof. exact apply_commute. Qed.
Print Assumptions C12_builder_calls_commute.

(* ... so any order of calls (one per field) yields the same options *)
Theorem C12_builder_any_order : forall cs cs', Permutation cs cs' -> NoDup (map field_of cs) -> forall f, build cs f = build cs' f.
Proof. intros cs cs' H Hn f. now apply fold_perm. Qed.
Print Assumptions C12_builder_any_order.

(* every chain - any length, repeated setters - yields the documented value of every option: the argument of the
   last call of its setter, the documented default if there is none *)
Theorem C12_builder_is_documented : forall cs f, build cs f = spec_value (named cs) (field_name f).
Proof. intros cs f. apply fold_spec, table_default. Qed.
Print Assumptions C12_builder_is_documented.

(* the limit handed to the task is the documented one ... *)
Theorem C12_limit_is_documented : forall cs, limit_of (build cs) = spec_limit (named cs).
Proof. intros cs. unfold limit_of, spec_limit. now rewrite C12_builder_is_documented. Qed.
Print Assumptions C12_limit_is_documented.

(* ... in particular it survives every later call of the other setters *)
Theorem C12_limit_survives_later_calls : forall cs1 b v cs2, builder_field b = tcp_limit_field ->
  (forall c, In c cs2 -> field_of c <> tcp_limit_field) ->
  limit_of (build (cs1 ++ (b, v) :: cs2)) = match v with 0%N => None | n => Some n end.
Proof. intros cs1 b v cs2 Hb H. unfold limit_of. rewrite <- Hb, set_survives; [now destruct v|]. now rewrite Hb. Qed.
Print Assumptions C12_limit_survives_later_calls.

Example C12_options_nonvacuous :
  limit_of (build [(BMaxResponseTimeouts, 3%N); (BChannelLogging, 1%N); (BDecodeLevel, 2%N)]) = Some 3%N /\
  limit_of (build [(BChannelLogging, 1%N); (BMaxQueuedRequests, 4%N)]) = None /\
  show_options (build [(BMaxQueuedRequests, 64%N); (BMaxResponseTimeouts, 2%N); (BChannelLogging, 1%N)])
    = "channel_logging=1 max_queued_requests=64 decode_level=0 max_timeouts=2"%string.
Proof. vm_compute. repeat split. Qed.
