(* C01 for the server at BYTE level with its command channel: a command that arrives while
   next_frame waits wins run_one's select!, the next_frame future is dropped and re-entered from the
   reader's state. Uses the reader's cancel-safety (C05_cancel_safe_session / C06_cancel_safe_session).
   Each theorem is followed by Print Assumptions; the lemmas used are in Proofs/.

   Events in temporal order: BChunk c (bytes become readable) | BCommand c | BClosed; then the
   stream ends as `fi` says (Some fi) or the session is still waiting (None). run_bytes:
   Model/SystemServerBytes.v. server_system: the command-free system of C01_System (which equals
   the reference: cut by the framing rule, reference Modbus server). *)
From Coq Require Import NArith List.
From Rodbus Require Base.Frame Base.ServerTypes Base.ServerRun Model.Reader Model.Server Model.SystemServer Model.SystemServerBytes
  Spec.Framing Gen.RtuLengths Proofs.C05Proofs Proofs.C06Proofs Proofs.SystemBytesProofs.
Import ListNotations.
Module F := Rodbus.Base.Frame.
Module S := Rodbus.Base.ServerTypes.
Module R := Rodbus.Base.ServerRun.
Import SystemServer SystemServerBytes SystemBytesProofs.

(* decode level changes at ANY positions between the chunks - each one drops a waiting next_frame in
   the middle of whatever frame is being received - leave replies, handler calls, handler states
   exactly those of the command-free server on the same chunks, and the session ends with the
   same reader ending: nothing is lost, duplicated or reordered *)
Theorem C01_bytes_commands_tcp : forall (St : Type) (H : S.handler St) a units d evs fi, no_end evs ->
  let x := run_bytes H S.LTcp a (Reader.reader_new Reader.KTcp) units d evs (Some fi) in
  let y := server_system H S.LTcp a units (chunks_of evs) fi in
  obs4 x = fst y /\ (snd (fst y) = Server.SOpen -> bend_of x = BReader (snd y)).
Proof.
  intros St H a units d evs fi Hne.
  exact (run_bytes_is_server_system H S.LTcp a units d evs fi Hne (C05Proofs.tcp_cancel_safe_session _ fi)).
Qed.
Print Assumptions C01_bytes_commands_tcp.

Theorem C01_bytes_commands_rtu : forall (St : Type) (H : S.handler St) a units d evs fi, no_end evs ->
  Forall Framing.bytes (chunks_of evs) ->
  let x := run_bytes H S.LRtu a (Reader.reader_new Reader.KRtuRequest) units d evs (Some fi) in
  let y := server_system H S.LRtu a units (chunks_of evs) fi in
  obs4 x = fst y /\ (snd (fst y) = Server.SOpen -> bend_of x = BReader (snd y)).
Proof.
  intros St H a units d evs fi Hne Hb.
  exact (run_bytes_is_server_system H S.LRtu a units d evs fi Hne (C06Proofs.rtu_cancel_safe_session Gen.RtuLengths.Request _ fi Hb)).
Qed.
Print Assumptions C01_bytes_commands_rtu.

(* from any reader state, with any other events around: the run does not depend on the level changes *)
Theorem C01_bytes_unobservable : forall (St : Type) (H : S.handler St) l a evs r units d d' fi,
  let '(rs, u, lg, _, se, b) := run_bytes H l a r units d evs fi in
  let '(rs2, u2, lg2, _, se2, b2) := run_bytes H l a r units d' (bstrip evs) fi in
  (rs, u, lg, se, b) = (rs2, u2, lg2, se2, b2).
Proof. exact @run_bytes_strip. Qed.
Print Assumptions C01_bytes_unobservable.

(* Shutdown / closed channel at event position k: the run is the run on the events before k (still
   waiting), ended by Shutdown - the frames completed by the chunks before k have been handled and
   answered, no later byte is looked at, however the stream goes on *)
Theorem C01_bytes_shutdown_cuts : forall (St : Type) (H : S.handler St) l a ev post fi, bends ev ->
  forall pre r units d,
  run_bytes H l a r units d (pre ++ ev :: post) fi = cut (run_bytes H l a r units d pre None).
Proof. exact @run_bytes_shutdown. Qed.
Print Assumptions C01_bytes_shutdown_cuts.
