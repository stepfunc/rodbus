(* C12 - Response timeouts fire exactly at the deadline; N in a row drop the connection.
   Statements, each followed by Print Assumptions; the proofs are in Proofs/C12Proofs.v or a few lines from it.
   `fire cfg d` = Spec.fires_at (cfg_res cfg) d is the instant the runtime's timer for deadline d
   fires: d itself for resolution 1 (C12_timer_resolution), the next multiple of the resolution
   otherwise (tokio's wheel: 1 ms).  All statements hold for every configuration and state. *)
From Coq Require Import NArith List Bool.
From Rodbus Require Import Model.Retry Spec.Lifecycle Spec.ClientSpec Gen.SessionErrors Model.ClientTask Model.ClientEager
  Proofs.ClientBase Proofs.C11Proofs Proofs.C12Proofs.
Import ListNotations.
Local Open Scope N_scope.

(* the deadline of a transmitted request is the instant its write completed plus its own timeout *)
Theorem C12_deadline : forall cfg s e id, In id (wire_ids (snd (step cfg s e))) ->
  exists r tx, ph (fst (step cfg s e)) = PInFlight r tx (now s + rq_timeout r) /\ rq_id r = id.
Proof. intros cfg s e id Hin. apply (wire_law_written _ _ _ id (step_wire cfg s e) Hin). Qed.
Print Assumptions C12_deadline.

(* the deadline branch completes the in-flight request with Timeout exactly from the instant the
   timer fires; strictly before it the branch is not enabled (no output, no state change) *)
Theorem C12_exact_timer : forall cfg s r tx d, ph s = PInFlight r tx d ->
  (fire cfg d <= now s -> exists o, snd (step cfg s EvTimer) = OComplete (rq_id r) (RErr ReResponseTimeout) :: o) /\
  (now s < fire cfg d -> step cfg s EvTimer = (s, [])).
Proof. exact timer_exact. Qed.
Print Assumptions C12_exact_timer.

(* a complete frame with the outstanding tx id completes the request with the reply's result, never
   with Timeout, at whatever instant it is taken while the request is still in flight (at an
   instant >= the deadline both this step and the timer step are enabled: both outcomes allowed) *)
Theorem C12_exact_frame : forall cfg s r tx d k, ph s = PInFlight r tx d -> partial s = None ->
  exists o, snd (step cfg s (EvFrame tx k)) = OComplete (rq_id r) (respond k) :: o /\ respond k <> RErr ReResponseTimeout.
Proof. exact frame_completes. Qed.
Print Assumptions C12_exact_frame.

(* under the eager schedule (a due timer fires before the next environment event is taken - what
   the real runtime does) a request that is still in flight is strictly before its deadline: so a
   reply is accepted iff it completes strictly before the deadline, and the Timeout completion
   happens at the first instant at or after it *)
Theorem C12_exact_eager : forall cfg es s, es <> [] ->
  let '(s', o, ok) := run_eager cfg s es in ok = true ->
  forall r tx d, ph s' = PInFlight r tx d -> now s' < fire cfg d.
Proof.
  intros cfg es s Hne. pose proof (eager_quiescent cfg es s Hne) as H. destruct (run_eager cfg s es) as [[s' o] ok].
  intros Hok r tx d Eph. specialize (H Hok). unfold timer_due in H. rewrite Eph in H. apply N.leb_gt in H. exact H.
Qed.
Print Assumptions C12_exact_eager.

Theorem C12_timer_resolution : (forall d, fires_at 1 d = d) /\
  (forall res d, 1 <= res -> d <= fires_at res d < d + res /\ fires_at res d mod res = 0).
Proof. exact (conj fires_at_exact fires_at_bounds). Qed.
Print Assumptions C12_timer_resolution.

(* a reply split across the deadline: the first part completes nothing, the timer completes the
   request with Timeout, and the remainder is consumed later without completing anything
   (C11_idle_drop / C11_mismatch state this for the tail) *)
Theorem C12_partial : forall cfg s r tx d k, ph s = PInFlight r tx d -> partial s = None ->
  step cfg s (EvHead tx k) = (set_partial s (Some (tx, k)), []).
Proof. intros cfg s r tx d k H1 H2. cbn [step]. rewrite H1, H2. reflexivity. Qed.
Print Assumptions C12_partial.

(* a timeout below the limit leaves the task idle on the same connection, with the completion as the only output *)
Theorem C12_usable : forall cfg s r tx d, ph s = PInFlight r tx d -> fire cfg d <= now s ->
  snd (tc_increment (tcount s)) = false ->
  step cfg s EvTimer = (set_tc (set_ph s PIdle) (fst (tc_increment (tcount s))), [OComplete (rq_id r) (RErr ReResponseTimeout)]).
Proof. exact timeout_usable. Qed.
Print Assumptions C12_usable.

(* for every limit m >= 1 and every outcome list over {timeout, success, exception, bad reply}:
   the counter as driven by run_one_request ends the session exactly at the Spec's drop index
   (first position that completes m timeouts in a row); `c` timeouts already counted *)
Theorem C12_counter : forall m, 1 <= m -> m <= usize_max ->
  forall os c, c < m -> ends_at (TcEnabled c m) os = drop_index m c os.
Proof. exact counter_spec. Qed.
Print Assumptions C12_counter.

Theorem C12_counter_from_start : forall m os, 1 <= m -> m <= usize_max ->
  ends_at (tc_new (Some m)) os = drop_index_opt (Some m) os.
Proof. exact counter_from_new. Qed.
Print Assumptions C12_counter_from_start.

(* without a limit, timeouts never drop the connection *)
Theorem C12_unlimited : forall os, ends_at (tc_new None) os = drop_index_opt None os.
Proof.
  cbn. induction os as [|o os IH]; [reflexivity|]. cbn [ends_at]. unfold tc_step. destruct (is_timeout o); cbn; rewrite IH; reflexivity.
Qed.
Print Assumptions C12_unlimited.

(* the task uses exactly this counter: a finished request with outcome oc makes one tc_step; the
   session ends (MaxTimeouts) iff tc_step says so, otherwise the task is idle on the same connection *)
Theorem C12_counter_in_task : forall s r oc,
  finish s r (outcome_result oc) =
  let '(t', stop) := tc_step (tcount s) oc in
  if stop then let '(s', o) := end_session (set_tc (set_ph s PIdle) t') SeMaxTimeouts in (s', [OComplete (rq_id r) (outcome_result oc)] ++ o)
  else (set_tc (set_ph s PIdle) t', [OComplete (rq_id r) (outcome_result oc)]).
Proof. exact finish_counter. Qed.
Print Assumptions C12_counter_in_task.

(* the count starts from zero on every connection (and the reader starts empty: finding F5) *)
Theorem C12_reset_at_start : forall cfg s s1 d, ph s = PConnecting -> retry_call s Reset = Some (s1, d) ->
  let s' := fst (step cfg s (EvConnect true)) in
  ph s' = PIdle /\ tcount s' = tc_reset (tcount s) /\ partial s' = None.
Proof.
  intros cfg s s1 d Eph Er. cbn [step]. rewrite Eph, Er. cbn. apply retry_call_frame in Er. destruct Er as (_ & _ & _ & _ & _ & _ & _ & Ht & _).
  rewrite Ht. repeat split.
Qed.
Print Assumptions C12_reset_at_start.

(* the transmission is bounded too, and its bound is not a response timeout.
   execute_request: timeout(request.timeout, io.write(..)), then `deadline = Instant::now() + request.timeout`.
   The bound is set when the write begins (write start + request timeout) ... *)
Theorem C12_write_bound_set : forall s r, ph s = PIdle ->
  forall r' tx u, ph (fst (transmit s r)) = PWriting r' tx u -> r' = r /\ wdl (fst (transmit s r)) = now s + rq_timeout r.
Proof. exact write_bound_set. Qed.
Print Assumptions C12_write_bound_set.

(* ... stays as it is while that write is in progress, under every event ... *)
Theorem C12_write_bound_kept : forall cfg s e r tx u, ph s = PWriting r tx u ->
  forall r' tx' u', ph (fst (step cfg s e)) = PWriting r' tx' u' -> (r', tx', u') = (r, tx, u) /\ wdl (fst (step cfg s e)) = wdl s.
Proof. exact write_bound_kept. Qed.
Print Assumptions C12_write_bound_kept.

(* ... and when the write is not done at its timer instant the request fails with Io and the session ends with IoError -
   whatever the timeout counter says and without touching it (it does not count towards "N in a row"; the connection
   is dropped anyway); before that instant the branch is not enabled *)
Theorem C12_write_timeout_is_io : forall cfg s r tx u, ph s = PWriting r tx u ->
  Nat.eqb (wpark s) 0 && (fire cfg u <=? now s) = false ->
  (fire cfg (wdl s) <= now s ->
     step cfg s EvTimer = (let '(s', o) := end_session (set_ph s PIdle) SeIoError in (s', [OComplete (rq_id r) (RErr ReIo)] ++ o))) /\
  (now s < fire cfg (wdl s) -> step cfg s EvTimer = (s, [])).
Proof. exact write_timeout_exact. Qed.
Print Assumptions C12_write_timeout_is_io.

(* a write that can finish does - also at or after the bound - and the reply deadline counts from the END of the write
   (C12_deadline); releasing the transport finishes a parked write at once *)
Theorem C12_write_done_first : forall cfg s r tx u, ph s = PWriting r tx u -> wpark s = 0%nat -> fire cfg u <= now s ->
  step cfg s EvTimer = (set_ph s (PInFlight r tx (now s + rq_timeout r)), [OWire tx (rq_id r)]).
Proof. exact write_done_first. Qed.
Print Assumptions C12_write_done_first.

Theorem C12_release_finishes_write : forall cfg s r tx u, ph s = PWriting r tx u -> wpark s = 1%nat -> fire cfg u <= now s ->
  step cfg s EvWriteRelease = (set_ph (set_wpark s 0) (PInFlight r tx (now s + rq_timeout r)), [OWire tx (rq_id r)]).
Proof. exact release_finishes. Qed.
Print Assumptions C12_release_finishes_write.

(* non-vacuity: limit 1; a parked write times out at 0 + 50 (Io, not counted: the session ends with IoError, not
   MaxTimeouts); on the next connection a write parked for 30 is released, the reply deadline is 130 + 50 *)
Example C12_write_example :
  let cfg := {| cfg_cap := 4; cfg_res := 1 |} in
  let rq i := CReq {| rq_id := i; rq_kind := KRead; rq_timeout := 50 |} in
  snd (run cfg (init 1 (Some 1) 20 40)
    [EvSubmit CEnable SFuture; EvRecv; EvConnect true; EvWritePark; EvSubmit (rq 1%nat) SFuture; EvRecv; EvTick 49; EvTimer; EvTick 1; EvTimer;
     EvWriteRelease; EvTick 20; EvTimer; EvConnect true; EvTick 30; EvWritePark; EvSubmit (rq 2%nat) SFuture; EvRecv; EvTick 30; EvWriteRelease;
     EvTick 49; EvTimer; EvTick 1; EvTimer])
  = [OListen LConnecting; ODial; OListen LConnected; OStamp 0 1; OComplete 1 (RErr ReIo); OEnd SeIoError; OListen (LWaitDisc 20);
     OListen LConnecting; ODial; OListen LConnected; OStamp 1 2; OWire 1 2; OComplete 2 (RErr ReResponseTimeout); OEnd SeMaxTimeouts; OListen (LWaitDisc 20)].
Proof. vm_compute. reflexivity. Qed.

(* non-vacuity: limit 2; the session ends at the second timeout of the first run of two *)
Example C12_counter_example :
  ends_at (tc_new (Some 2)) [Timeout; Success; Timeout; BadReply; Timeout; Timeout; Timeout] = Some 5%nat /\
  drop_index_opt (Some 2) [Timeout; Success; Timeout; BadReply; Timeout; Timeout; Timeout] = Some 5%nat /\
  fires_at 1000000 1500001 = 2000000.
Proof. vm_compute. repeat split. Qed.
