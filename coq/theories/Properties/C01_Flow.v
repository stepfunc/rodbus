(* C01, control-flow tie: the ORDER of the checks in SessionTask::handle_frame (empty -> unknown
   function -> parse error -> authorization -> unit lookup / broadcast), the guard, function field and
   exception code of every early reply, and the step sequence of every arm of Request::parse (range,
   limit constant, skipped byte-count byte, parse_all, expect_empty) are extracted from the Rust source
   by the translator on every run (Gen/ServerFlow.v). These theorems say that the hand-written model
   IS the interpreter of those regenerated skeletons - so a reordered check, a dropped guard, another
   limit constant in one arm or a missing expect_empty breaks a theorem here (besides being caught
   by the correspondence). Only statements, closed by `exact`, each followed by Print Assumptions. *)
From Coq Require Import NArith List String.
From Rodbus Require Import Base.Outcome Base.ServerTypes Model.Server Model.ServerFlow Gen.ServerFlow Proofs.ServerFlowProofs Proofs.ReaderTies.
Import ListNotations.
Local Open Scope N_scope.

Theorem C01_handle_frame_follows_flow : forall (St : Type) (H : handler St) l a units fr,
  handle_frame H l a units fr = run_flow H l a units fr fctx0 handle_frame_flow.
Proof. exact @handle_frame_follows_flow. Qed.
Print Assumptions C01_handle_frame_follows_flow.

Theorem C01_parse_follows_flow : forall f c, parse f c = run_pflow f (parse_flow f) c pctx0.
Proof. exact parse_follows_flow. Qed.
Print Assumptions C01_parse_follows_flow.

Theorem C01_error_reply_broadcast : forall l fr f ex, dest_is_broadcast (f_dest fr) = true ->
  reply_with_error_generic l fr f ex = if error_replies_suppressed_on_broadcast then Ok [] else format_ex l (f_tx fr) (f_dest fr) f ex.
Proof. intros l fr f ex Hb. unfold reply_with_error_generic. rewrite Hb. reflexivity. Qed.
Print Assumptions C01_error_reply_broadcast.

(* (= C02_reader_loop_shape = C17_reader_resets_on_error: one fact, ReaderTies.reader_loop_shape, under three properties)
   below the frame level: next_frame keeps the parser state from call to call (a call dropped by select! when a command
   arrives is re-entered in the middle of a frame) and resets it only when it returns a framing error; the receive
   buffer's compaction moves the pending bytes BEFORE it rewinds both indices. Regenerated from common/frame.rs and
   common/buffer.rs; the behavioural side is the byte-stream correspondence of this check and C05/C06. *)
Theorem C01_reader_loop_shape :
  Gen.ReaderLoop.next_frame_resets_parser_on_entry = false /\ Gen.ReaderLoop.next_frame_resets_parser_on_error = true /\
  Gen.ReaderLoop.read_some_compaction =
    ["let length = self.len()"; "self.buffer.copy_within(self.begin..self.end, 0)"; "self.begin = 0"; "self.end = length"]%string.
Proof. exact reader_loop_shape. Qed.
Print Assumptions C01_reader_loop_shape.

(* the skeleton as extracted from the unchanged tree, for the record *)
Example C01_flow_as_extracted : handle_frame_flow =
  [ FReadFunction ASilent;
    FDecodeFunction (AException GServed FieldUnknown 1);
    FParse (AException GServed FieldException 3);
    FAuthorize (AException GNotBroadcast FieldException 1);
    FDispatch ASilent ].
Proof. reflexivity. Qed.
