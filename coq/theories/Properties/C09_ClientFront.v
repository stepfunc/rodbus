(* C09 / C13 / C14 - the CLIENT FRONT-END as one composed model (Model/ClientFront.v): the channel
   task (the task model, Model/ClientTask.v: phases, command queue, requests, listener, waits), the
   doubling strategy (Model/Retry.v, C14) and the TLS client handshake on the generated version / mode
   tables (Model/Tls.v, C09). The task model's single "connection attempt yields" event is refined for
   TLS clients into: TCP connect yields -> parked in the handshake await -> handshake resolves; all
   other behaviour is the task model's step, unchanged.
   Statements, proved in Proofs/ClientFrontProofs.v, each followed by Print Assumptions.
   cfg = any channel configuration, tr = plain TCP or TLS with any minimum version / certificate
   mode / name setting; event lists are arbitrary. *)
From Coq Require Import NArith List.
From Rodbus Require Import Model.Retry Spec.RetrySpec Spec.Lifecycle Gen.SessionErrors Model.ClientTask Spec.TlsSpec Gen.TlsVersions Gen.TlsModes Model.Tls Model.RetryTask Model.ClientFront Proofs.C13Live Proofs.ClientFrontProofs.
Import ListNotations.
Local Open Scope N_scope.

(* the invariant of every run: while parked in the handshake the task is in its Connecting phase,
   and whenever a connection is up it was established with a server the admission Spec accepts *)
Theorem ClientFront_invariant : forall cfg tr h mt mn mx es, finv tr (fst (crun cfg tr (cinit h mt mn mx) es)).
Proof. intros. apply crun_inv. apply cinit_inv. Qed.
Print Assumptions ClientFront_invariant.

(* in every reachable state, whatever happens next, a request
   byte is written (OStamp / OWire / OWireFail) or a reply frame interpreted (completion with Ok,
   Exception or BadResponse) only on a connection that is up, which was admitted: for a TLS client a
   server with `expected (client endpoint) p = Established`; in particular never while the handshake
   is pending *)
Theorem ClientFront_no_bytes_before_handshake : forall cfg tr f e, finv tr f ->
  existsb is_traffic (snd (cstep cfg tr f e)) = true ->
  connected (ph (core f)) = true /\ hs f = None /\ admitted_server tr (last_server f).
Proof. exact traffic_only_when_admitted. Qed.
Print Assumptions ClientFront_no_bytes_before_handshake.

Theorem ClientFront_silent_while_handshaking : forall cfg tr f e k, finv tr f -> hs f = Some k ->
  existsb is_traffic (snd (cstep cfg tr f e)) = false.
Proof. exact no_traffic_while_handshaking. Qed.
Print Assumptions ClientFront_silent_while_handshaking.

(* a failed handshake is handled exactly like a failed connect (the task model's step on EvConnect
   false): the listener hears WaitAfterFailedConnect with the NEXT doubling delay, the strategy advances
   and is not reset (seeded change c14_3) *)
Theorem ClientFront_failed_handshake_is_failed_connect : forall cfg tr f k, hs f = Some k -> k <> SrvStalls ->
  handshake_ok tr k = false ->
  cstep cfg tr f CHandshake =
    (let '(s', o) := ClientTask.step cfg (core f) (EvConnect false) in ({| core := s'; hs := None; last_server := last_server f |}, o)).
Proof. exact failed_handshake_is_failed_connect. Qed.
Print Assumptions ClientFront_failed_handshake_is_failed_connect.

Theorem ClientFront_failed_handshake_waits_next_delay : forall cfg tr f k, finv tr f -> hs f = Some k -> k <> SrvStalls ->
  handshake_ok tr k = false -> 2 * cur (retry (core f)) <= dur_max ->
  snd (cstep cfg tr f CHandshake) = [OListen (LWaitFailed (cur (retry (core f))))] /\
  retry (core (fst (cstep cfg tr f CHandshake))) =
    {| dmin := dmin (retry (core f)); dmax := dmax (retry (core f)); cur := N.min (2 * cur (retry (core f))) (dmax (retry (core f))) |}.
Proof. exact failed_handshake_waits_next_delay. Qed.
Print Assumptions ClientFront_failed_handshake_waits_next_delay.

(* Connected is announced exactly when the task is in its Connecting phase
   and either (plain TCP) the TCP connect succeeds, or (TLS) the pending handshake resolves with a
   server the C09 admission Spec accepts: version at or above the minimum, chain (and name, iff one
   is configured) or byte-identical self-signed certificate *)
Theorem ClientFront_admits_iff : forall cfg tr f e, finv tr f ->
  (In (OListen LConnected) (snd (cstep cfg tr f e)) <->
   ph (core f) = PConnecting /\
   ((tr = CPlain /\ hs f = None /\ exists k, e = CTcp true k) \/
    (exists k, hs f = Some k /\ e = CHandshake /\ handshake_ok tr k = true))).
Proof. exact connected_front_iff. Qed.
Print Assumptions ClientFront_admits_iff.

Theorem ClientFront_handshake_ok_is_admission : forall tr k, handshake_ok tr k = true <->
  exists min mode ng p v, tr = CTls min mode ng /\ k = SrvTls p /\
    expected (endpoint_of ClientSide min mode false ng) p = Established v None.
Proof. exact handshake_ok_spec. Qed.
Print Assumptions ClientFront_handshake_ok_is_admission.

(* over ANY event list (connect outcomes, handshake failures, lost connections,
   disable / enable, requests, ticks, ...) the delays announced to the listener are the Spec's delays
   for the sequence Connected |-> reset, WaitAfterFailedConnect |-> failed connect,
   WaitAfterDisconnect |-> disconnect read off the same listener trace: the k-th failure since the
   last Connected announces min * 2^(k-1) capped at max, a disconnect announces min, and the
   sequence restarts exactly at a Connected announcement (not at a disable / enable) *)
Theorem ClientFront_retry : forall mn mx, mn <= mx -> 2 * mx <= dur_max -> forall cfg tr h mt es,
  let l := listens_of (snd (crun cfg tr (cinit h mt mn mx) es)) in
  waits l = somes (spec mn mx 0 (sops l)).
Proof. exact front_retry. Qed.
Print Assumptions ClientFront_retry.

(* every step of the composed model is a step of the task model on its core (or does nothing), so
   the theorems about single steps of the task model (C10 - C13) apply to it *)
Theorem ClientFront_is_task_step : forall cfg tr f e,
  (exists ev, (core (fst (cstep cfg tr f e)), snd (cstep cfg tr f e)) = ClientTask.step cfg (core f) ev) \/
  (core (fst (cstep cfg tr f e)) = core f /\ snd (cstep cfg tr f e) = []).
Proof. exact cstep_is_step. Qed.
Print Assumptions ClientFront_is_task_step.

(* The handshake is raced with the command queue (finding F13): while the handshake is pending every
   event of the task model is handled exactly as the task model's Connecting phase handles it ... *)
Theorem ClientFront_parked_is_connecting : forall cfg tr f ev, (forall b, ev <> EvConnect b) ->
  (core (fst (cstep cfg tr f (CE ev))), snd (cstep cfg tr f (CE ev))) = ClientTask.step cfg (core f) ev.
Proof. exact parked_is_connecting. Qed.
Print Assumptions ClientFront_parked_is_connecting.

(* ... so a Shutdown taken from the queue while the handshake is pending ends the task at once with
   exactly one Shutdown notification and drops the handshake (the socket), a queued request fails at
   once with NoConnection and the handshake goes on ... *)
Theorem ClientFront_shutdown_during_handshake : forall cfg tr f k q, finv tr f -> hs f = Some k -> queue (core f) = CShutdown :: q ->
  let f' := fst (cstep cfg tr f (CE EvRecv)) in
  ph (core f') = PDone /\ hs f' = None /\ listens_of (snd (cstep cfg tr f (CE EvRecv))) = [LShutdown].
Proof. exact shutdown_during_handshake. Qed.
Print Assumptions ClientFront_shutdown_during_handshake.

Theorem ClientFront_request_during_handshake_fails_fast : forall cfg tr f k r q, finv tr f -> hs f = Some k ->
  queue (core f) = CReq r :: q ->
  snd (cstep cfg tr f (CE EvRecv)) = [OComplete (rq_id r) (RErr ReNoConnection)] /\ hs (fst (cstep cfg tr f (CE EvRecv))) = Some k.
Proof. exact request_during_handshake_fails_fast. Qed.
Print Assumptions ClientFront_request_during_handshake_fails_fast.

(* ... and the liveness theorem C13_shutdown_from_every_state of the task model carries over to the
   composed TLS client in EVERY state, the pending handshake included: once a Shutdown command is
   queued, the task's own steps (recv, its timers, the clock) lead to termination *)
Theorem ClientFront_shutdown_from_every_state : forall cfg tr f,
  (queue (core f) = [] -> blocked (core f) = []) -> In CShutdown (queue (core f) ++ blocked (core f)) -> ph (core f) <> PDone ->
  exists es, forallb Proofs.C13Live.internal es = true /\ ph (core (fst (crun cfg tr f (map CE es)))) = PDone.
Proof. exact front_shutdown_from_every_state. Qed.
Print Assumptions ClientFront_shutdown_from_every_state.

(* non-vacuity: a TLS server that accepts the TCP connection and stays silent; Shutdown is honoured at once *)
Example ClientFront_silent_server :
  let cfg := {| cfg_cap := 4%nat; cfg_res := 1 |} in
  let tr := CTls V1_2 AuthorityBased true in
  let '(f, o) := crun cfg tr (cinit 1 None 20 70)
                   [CE (EvSubmit CEnable SFuture); CE EvRecv; CTcp true SrvStalls; CE (EvSubmit CShutdown SFuture); CE EvRecv] in
  hs f = None /\ ph (core f) = PDone /\ listens_of o = [LConnecting; LShutdown].
Proof. exact handshake_raced_witness. Qed.
