(* C01 - Server replies exactly as the Modbus application protocol prescribes.
   Each theorem is followed by Print Assumptions; the lemmas used are in Proofs/.

   Model = Model/Server.v (transcription of server/task.rs, server/request.rs, common/serialize.rs,
   common/frame.rs, types.rs; replies formatted through Model/Format.v into the shared 260-byte
   buffer). Spec = Spec/Modbus.v (reference server written from the protocol text). Both take the
   application's point handlers H (ANY deterministic state machine), ANY unit map (unit id ->
   handler object, objects may be shared between unit ids; `ucfg`) and ANY authorization policy. A frame is what the reader delivers: optional transaction id, destination,
   PDU bytes; frame_ok says: PDU bytes are bytes, and a TCP frame carries a transaction id. *)
From Coq Require Import NArith Arith List String.
From Rodbus Require Proofs.PackProofs.
From Rodbus Require Import Base.Outcome Base.ServerTypes Model.Server Model.ServerRender Model.ServerExec Spec.Modbus
  Proofs.ServerParse Proofs.ServerProofs Proofs.ServerProps Proofs.ServerTheorems.
Import ListNotations.
Local Open Scope N_scope.

(* single frame: whatever the function code (the eight supported ones, any unsupported one, none),
   the payload, the handler state, the unit map and the policy, the code's reply bytes, new handler
   states and application-call log are exactly the reference server's - and formatting never fails
   (in-limit replies fit the 260-byte writer; partial bytes written before a handler exception
   are discarded by the exception fallback) *)
Theorem C01_frame : forall (St : Type) (H : handler St) l a units fr, frame_ok l fr ->
  handle_frame H l a units fr = lift3 (ref_handle_frame H l a units fr).
Proof. exact @handle_frame_refines. Qed.
Print Assumptions C01_frame.

(* sequences on one connection, MBAP framing: one entry per request, in request order *)
Theorem C01_tcp : forall (St : Type) (H : handler St) a frames units, Forall (frame_ok LTcp) frames ->
  session H LTcp a units frames =
    (let '(replies, units', log) := ref_session H LTcp a units frames in (replies, units', log, SOpen)).
Proof. exact (fun St H => @session_refines St H LTcp). Qed.
Print Assumptions C01_tcp.

(* the same over RTU framing, for ANY frames with byte PDUs. (An unknown function code gets its
   exception-01 reply here as on TCP; that the RTU parser never delivers such a frame - on serial it
   is a framing error that ends the session - is C06's and C01_system_rtu's business.) *)
Theorem C01_rtu : forall (St : Type) (H : handler St) a frames units, Forall (frame_ok LRtu) frames ->
  session H LRtu a units frames =
    (let '(replies, units', log) := ref_session H LRtu a units frames in (replies, units', log, SOpen)).
Proof. exact (fun St H => @session_refines St H LRtu). Qed.
Print Assumptions C01_rtu.

(* no request sequence can make reply formatting fail or panic: the session stays open *)
Theorem C01_never_fails : forall (St : Type) (H : handler St) l a units frames, Forall (frame_ok l) frames ->
  snd (session H l a units frames) = SOpen.
Proof. exact @session_never_fails. Qed.
Print Assumptions C01_never_fails.

(* every reply is nothing, or ONE ADU echoing the request's transaction id and unit id and carrying
   the request's function code with: packed bits, or big-endian registers, or the echoed write, or
   (function code with its top bit set, exception code) *)
Theorem C01_reply_shape : forall (St : Type) (H : handler St) l a units fr, frame_ok l fr ->
  reply_of (handle_frame H l a units fr) = Ok [] \/
  exists fc body pdu, f_pdu fr = fc :: body /\ pdu_shape fc pdu /\
    reply_of (handle_frame H l a units fr) = Ok (adu l (f_tx fr) (dest_value (f_dest fr)) pdu).
Proof.
  intros St H l a units fr Hok. destruct (handle_frame_of_ref H l a units fr Hok) as (-> & _ & _).
  destruct (ref_reply H l a units fr) as [->|(u & fc & body & pdu & -> & _ & E1 & E2 & ->)]; [left; reflexivity|].
  right. exists fc, body, pdu. auto.
Qed.
Print Assumptions C01_reply_shape.

(* packing is LSB first: value k of a bit read is bit (k mod 8) of data byte k / 8. (The hypothesis only says
   which positions are meant: beyond the last value the equation holds too, both sides are false.) *)
Theorem C01_pack_lsb_first : forall (bits : list bool) k, (k < List.length bits)%nat ->
  N.testbit (List.nth (k / 8)%nat (pack bits) 0) (N.of_nat (k mod 8)%nat) = List.nth k bits false.
Proof. intros bits k _. exact (PackProofs.pack_bit bits k). Qed.
Print Assumptions C01_pack_lsb_first.

(* the decoder of the code accepts exactly the protocol's valid requests *)
Theorem C01_parse : forall f body, Forall byte body ->
  match parse f body with
  | Some r => decode (Gen.Consts.fcode_value f :: body) = Valid (Gen.Consts.fcode_value f) (to_spec r) /\ req_wf r /\ get_function r = f
  | None => decode (Gen.Consts.fcode_value f :: body) = Invalid (Gen.Consts.fcode_value f)
  end.
Proof. exact parse_decode. Qed.
Print Assumptions C01_parse.

(* non-vacuity: a concrete TCP session against the programmable handler - read 10 coils, write a
   coil, read past the limit (exception 03), unknown function (exception 01), unconfigured unit
   (silence), read of a register whose handler raises exception 4 *)
Example C01_nonvacuous :
  run_model (LTcp, [(1, 1)], [mku 1 3 5 [(2, 1, 4)] [] [] [] [] []], CNone,
             [mkf (Some 1) (DUnit 1) [1; 0; 0; 0; 10]; mkf (Some 2) (DUnit 1) [5; 0; 7; 255; 0];
              mkf (Some 3) (DUnit 1) [1; 0; 0; 7; 209]; mkf (Some 4) (DUnit 1) [43; 14; 1; 0];
              mkf (Some 5) (DUnit 9) [1; 0; 0; 0; 1]; mkf (Some 6) (DUnit 1) [3; 0; 0; 0; 3]])
  = "0001000000050101026901,00020000000601050007FF00,000300000003018103,00040000000301AB01,-,000600000003018304|rc.1.0-9;wsc.1.7.1;rh.1.0-1|open"%string.
Proof. vm_compute. reflexivity. Qed.
