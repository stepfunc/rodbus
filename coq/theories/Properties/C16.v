(* C16 - Only peers matching the address filter are ever served, in every server variant.
   Statements, each followed by Print Assumptions; the lemmas are in Proofs/FilterProofs.v. *)
From Coq Require Import NArith List String.
From Rodbus Require Import Gen.ServerCtors Model.Filter Spec.FilterSpec Proofs.FilterProofs.
Import ListNotations.
Local Open Scope N_scope.

(* For EVERY byte string s: WildcardIPv4::from_str accepts s with result w exactly when s is four
   '.'-separated dot-free fields, each "*" (pattern None) or a numeral of value <= 255 (pattern Some v).
   Numeral = what u8::from_str accepts: ASCII digits with an optional single leading '+', leading
   zeros allowed (observation recorded in DESIGN.md section 7). *)
Theorem C16_parse : forall s w, parse_wildcard s = Some w <-> wildcard_string s w.
Proof. exact parse_iff. Qed.
Print Assumptions C16_parse.

Theorem C16_parse_rejects : forall s, parse_wildcard s = None <-> forall w, ~ wildcard_string s w.
Proof. exact (none_iff parse_wildcard wildcard_string parse_iff). Qed.
Print Assumptions C16_parse_rejects.

Theorem C16_parse_octets : forall s w, parse_wildcard s = Some w ->
  forall v, In (Some v) [b3 w; b2 w; b1 w; b0 w] -> v <= 255.
Proof.
  intros s w H v Hin. apply parse_iff in H. destruct H as (f3 & f2 & f1 & f0 & _ & _ & _ & _ & _ & H3 & H2 & H1 & H0).
  assert (Hf : forall f, field f (Some v) -> v <= 255) by (intros f Hf; inversion Hf; subst; assumption).
  cbn [In] in Hin. destruct Hin as [E|[E|[E|[E|[]]]]]; rewrite E in *; eauto.
Qed.
Print Assumptions C16_parse_octets.

(* For every filter value and every peer address: AddressFilter::matches is true exactly for Any,
   the exact address, members of the set, and IPv4 addresses agreeing with every literal octet of
   the wildcard; a wildcard never matches an IPv6 peer. *)
Theorem C16_match : forall f peer, matches f peer = true <-> admits f peer.
Proof. exact matches_iff. Qed.
Print Assumptions C16_match.

(* a set filter admits exactly its members - the empty set admits nobody *)
Theorem C16_match_set : forall s peer, matches (AnyOf s) peer = true <-> In peer s.
Proof. intros s peer. apply (matches_iff (AnyOf s) peer). Qed.
Print Assumptions C16_match_set.

Theorem C16_match_empty_set : forall peer, matches (AnyOf []) peer = false.
Proof. reflexivity. Qed.
Print Assumptions C16_match_empty_set.

Theorem C16_match_v6 : forall w segs, matches (WildcardIpv4 w) (V6 segs) = false.
Proof. reflexivity. Qed.
Print Assumptions C16_match_v6.

(* The accept arm of ServerTask::run (shape regenerated from tcp/server.rs): any call that touches
   the accepted socket - in particular self.handle, the only entry to session spawn and the TLS
   handshake - is made only for admitted peers; for the others the arm only logs, so the socket is
   dropped without a byte. Admitted peers are handed to self.handle. *)
Theorem C16_gate : forall f peer c,
  In c (on_accept accept_arm f peer) -> uses_socket c = true -> admits f peer.
Proof. exact gate_served_only_if_admitted. Qed.
Print Assumptions C16_gate.

Theorem C16_gate_serves : forall f peer, admits f peer -> In CallHandle (on_accept accept_arm f peer).
Proof. exact gate_admitted_is_handled. Qed.
Print Assumptions C16_gate_serves.

(* The accept DECISION is a function of (filter, peer address) only. The guard of the accept arm is regenerated as the
   list of conjuncts of its condition; a conjunct that is not the filter test is interpreted by an ARBITRARY function `o`
   of the connections accepted so far and the current peer (Model/Filter.v `served`). For every such `o` and every
   history the connection is served exactly when the filter admits the peer - so the k-th of ANY sequence of connections
   to one listener (the same stranger again and again, strangers alternating, permitted peers in between) is judged
   as if it were the first. *)
Theorem C16_gate_decision : forall o hist f peer,
  served accept_guard accept_guard_kind o hist f peer = true <-> admits f peer.
Proof. intros o hist f peer. rewrite gate_decision. apply matches_iff. Qed.
Print Assumptions C16_gate_decision.

Theorem C16_gate_history_free : forall o o' hist hist' f peer,
  served accept_guard accept_guard_kind o hist f peer = served accept_guard accept_guard_kind o' hist' f peer.
Proof. intros. now rewrite !gate_decision. Qed.
Print Assumptions C16_gate_history_free.

Theorem C16_gate_sequence : forall o f peers hist k p, nth_error peers k = Some p ->
  exists b, nth_error (serve_seq accept_guard accept_guard_kind o hist f peers) k = Some b /\ (b = true <-> admits f p).
Proof.
  intros o f peers hist k p H. rewrite gate_sequence. exists (matches f p). split.
  - now rewrite nth_error_map, H.
  - apply matches_iff.
Qed.
Print Assumptions C16_gate_sequence.

(* In the generated call-site table of tcp/server.rs, session spawn (tokio::spawn/run_session), the
   TLS handshake (the row "tls_handshake", called from "conn_handler.handle") and SessionTask::new
   are reachable from the accept loop only through the guarded call, and each of them has a call site.
   The fuel 8 only bounds the search through callers: reach_unguarded answers "reachable" when it runs
   out, so too small a fuel makes the statement false, not vacuous; the deepest of the six functions
   is four callers away from the accept loop. *)
Theorem C16_gate_callgraph :
  forallb (fun fn => negb (reach_unguarded 8 fn))
          ["handle"; "run_session"; "tokio::spawn"; "conn_handler.handle"; "tls_handshake"; "SessionTask::new"]%string = true
  /\ forallb (fun fn => match callers_of fn with [] => false | _ => true end)
          ["handle"; "run_session"; "tokio::spawn"; "conn_handler.handle"; "tls_handshake"; "SessionTask::new"]%string = true.
Proof. vm_compute. split; reflexivity. Qed.
Print Assumptions C16_gate_callgraph.

(* Every server constructor of rodbus/src/server/mod.rs and ffi/rodbus-ffi/src/server.rs passes the
   caller's filter (table regenerated from the sources) ... *)
Theorem C16_forward : forall c, In c ctor_calls -> cc_arg c = Forwarded.
Proof.
  intros c H.
  assert (A : forallb (fun c => match cc_arg c with Forwarded => true | _ => false end) ctor_calls = true) by (vm_compute; reflexivity).
  rewrite forallb_forall in A. apply A in H. destruct (cc_arg c); [reflexivity|discriminate|discriminate].
Qed.
Print Assumptions C16_forward.

(* ... so that from every public constructor, along every call path, the server task is built with
   exactly the filter the caller supplied (and at least one path builds it). Fuel 8 as above:
   `effective` answers [None] when it runs out, which the statement excludes; the longest chain of
   constructor calls in the table has 5 calls. *)
Theorem C16_forward_paths : forall fn, In fn public_ctors ->
  forall f : afilter, effective 8 fn f <> [] /\ Forall (fun r => r = Some f) (effective 8 fn f).
Proof.
  intros fn H. exact (forward_all fn (public_are_ctors fn H)).
Qed.
Print Assumptions C16_forward_paths.

(* ServerTask::new hands the accept loop the very filter it is given: between its parameter list and the struct literal
   no statement rebinds or assigns `filter` (every such statement is regenerated into sink_filter_rebindings) and the
   field is initialised with the parameter itself *)
Theorem C16_sink_untransformed : sink_filter_rebindings = [] /\ sink_filter_field = "filter"%string.
Proof. split; reflexivity. Qed.
Print Assumptions C16_sink_untransformed.

(* 6 = the six server variants the property speaks of (TCP, TLS, TLS with authorization, each through
   the Rust API and through the C ABI): a lower bound that keeps C16_forward_paths from holding over a
   table the translator failed to fill. The table has more entries (the Rust API has a spawn_ and a
   create_ constructor per kind). *)
Theorem C16_forward_misc : sink_stores_filter = true /\ ffi_filter_conversion_is_identity = true
  /\ (6 <= List.length public_ctors)%nat.
Proof. vm_compute. repeat split. repeat constructor. Qed.
Print Assumptions C16_forward_misc.

(* Through the C ABI a filter is given as a string: rodbus_address_filter_create first tries an IP literal
   (one-element set), else the wildcard parser. For the IPv4 part (model of Ipv4Addr::from_str: 1-3 digits,
   no leading zero, <= 255): every accepted string is a well-formed wildcard string and the filter built
   admits exactly the peers of that wildcard - so an IPv4 literal means "exactly this address". *)
Theorem C16_ffi_filter_string : forall s f, ffi_filter_v4 s = Some f ->
  exists w, wildcard_string s w /\ forall peer, matches f peer = matches (WildcardIpv4 w) peer.
Proof. exact ffi_filter_is_wildcard_semantics. Qed.
Print Assumptions C16_ffi_filter_string.

(* A string containing ':' is never a wildcard string and never an IPv4 literal: through the C ABI it can only be
   taken as an IPv6 literal (or rejected). *)
Theorem C16_colon_never_wildcard : forall s, In 58 s -> parse_wildcard s = None /\ parse_ipv4 s = None.
Proof.
  intros s Hin. split; [exact (colon_never_wildcard s Hin)|].
  destruct (parse_ipv4 s) as [x|] eqn:E; [|reflexivity].
  destruct (parse_ipv4_is_v4 s x E) as (a & b & c & d & ->).
  apply ipv4_literal_is_wildcard in E. rewrite (colon_never_wildcard s Hin) in E. discriminate.
Qed.
Print Assumptions C16_colon_never_wildcard.

(* The C-ABI filter string in full (IPv4 literal, else IPv6 literal, else wildcard), for ANY IPv6 literal parser
   that accepts only strings containing a colon: the filter built either has the semantics of the well-formed
   wildcard string s, or s is an IPv6 literal, not a wildcard, and exactly that address is admitted. *)
Theorem C16_ffi_filter_full : forall parse_v6 : str -> option ip,
  (forall s a, parse_v6 s = Some a -> In 58 s) ->
  forall s f, ffi_filter parse_v6 s = Some f ->
  (exists w, wildcard_string s w /\ forall peer, matches f peer = matches (WildcardIpv4 w) peer) \/
  (exists a, parse_v6 s = Some a /\ parse_wildcard s = None /\ forall peer, matches f peer = true <-> peer = a).
Proof.
  intros parse_v6 v6_has_colon s f. unfold ffi_filter. destruct (parse_ipv4 s) as [x|] eqn:E4.
  - intros H. left. apply (ffi_filter_is_wildcard_semantics s f). unfold ffi_filter_v4. now rewrite E4.
  - destruct (parse_v6 s) as [a|] eqn:E6.
    + intros H; inversion H; subst. right. exists a. split; [reflexivity|]. split.
      * apply colon_never_wildcard. eapply v6_has_colon; eassumption.
      * intros peer. rewrite matches_iff. cbn [admits In]. intuition congruence.
    + intros H. left. apply (ffi_filter_is_wildcard_semantics s f). unfold ffi_filter_v4. now rewrite E4.
Qed.
Print Assumptions C16_ffi_filter_full.

Example C16_parse_examples :
  map show_parse [[49;55;50;46;49;55;46;50;48;46;42]; [43;49;46;48;48;55;46;42;46;51]; [49;46;50;46;51];
                  [49;46;50;46;51;46;52;46;53]; [49;46;50;46;51;46;50;53;54]; [42;42;46;49;46;49;46;49]]
  = ["172.17.20.*"; "1.7.*.3"; "ERR"; "ERR"; "ERR"; "ERR"]%string.
Proof. vm_compute. reflexivity. Qed.

Example C16_match_examples :
  let w := {| b3 := Some 127; b2 := Some 0; b1 := Some 0; b0 := None |} in
  (matches (WildcardIpv4 w) (V4 127 0 0 2), matches (WildcardIpv4 w) (V4 127 0 1 2),
   matches (AnyOf [V4 127 0 0 2; V6 [0;0;0;0;0;0;0;1]]) (V6 [0;0;0;0;0;0;0;1]), matches (Exact (V4 127 0 0 2)) (V4 127 0 0 1))
  = (true, false, true, false).
Proof. vm_compute. reflexivity. Qed.

Example C16_forward_example :
  effective 8 "rodbus_ffi::server_create_tls" (Exact (V4 127 0 0 2)) = [Some (Exact (V4 127 0 0 2)); Some (Exact (V4 127 0 0 2))].
Proof. vm_compute. reflexivity. Qed.
