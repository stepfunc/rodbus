(* C18, client side: the caller's value list is unchanged by being passed to a call.
   Only statements, closed by `exact`, each followed by Print Assumptions. *)
From Coq Require Import List String.
From Rodbus Require Import Gen.FfiTables Spec.FfiSpec Model.FfiClient.
From Rodbus Require Proofs.FfiListProofs.
Import ListNotations.
Local Open Scope N_scope.
Module P := Rodbus.Proofs.FfiListProofs.

(* a list object is unchanged by being passed to a call: for any interleaving of rodbus_*_list_add and write-multiple
   calls on ONE list object, every call reads exactly the values added so far, in order (the second periodic write of
   a prepared block carries the same block; a value added between two calls is appended to it). Over the regenerated
   `list_args` (how client_channel_write_multiple_coils / _registers borrow the object and take its values). *)
Theorem C18_list_unchanged : forall fn, In fn ["write_multiple_coils"; "write_multiple_registers"]%string -> forall A (l : list A),
  list_read fn l = Some l /\ list_left fn l = Some l.
Proof. exact P.list_unchanged. Qed.
Print Assumptions C18_list_unchanged.

Theorem C18_list_reuse : forall fn, In fn ["write_multiple_coils"; "write_multiple_registers"]%string -> forall A (steps : list (list_step A)) (l : list A),
  list_calls fn (Some l) steps = map (fun p => (fst p, Some (snd p))) (list_calls_spec l steps).
Proof. exact P.list_reuse. Qed.
Print Assumptions C18_list_reuse.

Theorem C18_list_borrow : map (fun r => fst (fst r)) list_args = ["write_multiple_coils"; "write_multiple_registers"]%string /\
  forall fn, In fn ["write_multiple_coils"; "write_multiple_registers"]%string -> fst (list_use fn) = "as_ref"%string.
Proof. exact (conj P.list_args_complete P.list_borrowed_immutably). Qed.
Print Assumptions C18_list_borrow.
