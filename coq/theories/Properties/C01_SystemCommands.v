(* C01 for the server as a whole WITH its command channel: chunked byte stream -> production reader
   -> SessionTask::run with ChangeDecoding / Shutdown / closed channel / pending reply writes.
   Composition of the reader refinement (C05/C06), the session refinement (C01_frame) and the
   command layer (C01_Commands). Each theorem is followed by Print Assumptions; the lemmas used are in Proofs/.

   The schedule of select! outcomes is a list of CNext (run_one's reader branch: it gets the next
   frame the reader delivers) | CCommand c | CClosed | CWriteDone | CWriteFailed. The statement is over the frames
   the reader delivers from the stream; that a next_frame cancelled by the command branch loses no
   bytes is the reader's cancel-safety (C05/C06). *)
From Coq Require Import NArith List.
From Rodbus Require Base.Frame Base.ServerTypes Base.ServerRun Model.Reader Model.Server Model.ServerRun Spec.Framing Spec.Modbus
  Model.SystemServer Model.SystemServerRun Spec.SystemSpec Proofs.SystemProofs Proofs.SystemRunProofs.
Import ListNotations.
Module F := Rodbus.Base.Frame.
Module S := Rodbus.Base.ServerTypes.
Module R := Rodbus.Base.ServerRun.
Import SystemServer SystemServerRun SystemSpec SystemRunProofs.

(* TCP / TLS: every byte stream, every cut into non-empty reads, every schedule of select! outcomes,
   every handler machine, policy and unit map: the whole server = cut by the framing rule, then the
   same schedule over the reference Modbus server *)
Theorem C01_system_commands_tcp : forall (St : Type) (H : S.handler St) a units d s chunks fi cevs,
  Framing.bytes s -> concat chunks = s -> Forall (fun c => c <> []) chunks ->
  server_system_run H S.LTcp a units d chunks fi cevs = ref_server_system_run H S.LTcp a units d s fi cevs.
Proof. exact (fun St H => @server_system_run_refines St H S.LTcp). Qed.
Print Assumptions C01_system_commands_tcp.

Theorem C01_system_commands_rtu : forall (St : Type) (H : S.handler St) a units d s chunks fi cevs,
  Framing.bytes s -> concat chunks = s -> Forall (fun c => c <> []) chunks ->
  server_system_run H S.LRtu a units d chunks fi cevs = ref_server_system_run H S.LRtu a units d s fi cevs.
Proof. exact (fun St H => @server_system_run_refines St H S.LRtu). Qed.
Print Assumptions C01_system_commands_rtu.

Theorem C01_system_commands_chunking_independent : forall (St : Type) (H : S.handler St) l a units d c1 c2 fi cevs,
  Framing.bytes (concat c1) -> concat c1 = concat c2 -> Forall (fun c => c <> []) c1 -> Forall (fun c => c <> []) c2 ->
  server_system_run H l a units d c1 fi cevs = server_system_run H l a units d c2 fi cevs.
Proof.
  intros St H l a units d c1 c2 fi cevs Hb Hc H1 H2.
  rewrite (server_system_run_refines H l a units d (concat c1) c1 fi cevs Hb eq_refl H1).
  rewrite (server_system_run_refines H l a units d (concat c1) c2 fi cevs Hb (eq_sym Hc) H2). reflexivity.
Qed.
Print Assumptions C01_system_commands_chunking_independent.

(* decode level changes at any positions of the schedule: same replies, calls, states, same ending *)
Theorem C01_system_commands_unobservable : forall (St : Type) (H : S.handler St) l a units d d' chunks fi cevs,
  let x := server_system_run H l a units d chunks fi cevs in
  let y := server_system_run H l a units d' chunks fi (cstrip cevs) in
  R.observable (fst x) = R.observable (fst y) /\ snd x = snd y.
Proof.
  intros St H l a units d d' chunks fi cevs. cbv zeta. unfold server_system_run. rewrite fill_strip.
  destruct (fill _ cevs) as [evs b]. split; [apply ServerRunProofs.unobservable|reflexivity].
Qed.
Print Assumptions C01_system_commands_unobservable.
