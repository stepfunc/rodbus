(* C15 - Server sessions: bounded, oldest evicted, isolated, all closed on shutdown.
   Statements, each followed by Print Assumptions; the lemmas are in Proofs/TrackerProofs.v.
   The model (Model/Tracker.v) is the SessionTracker and the accept loop of rodbus/src/tcp/server.rs;
   `init m` is a server created with max_sessions = m; theorems quantify over ALL event lists
   (every interleaving of accepts, session ends, end notifications, requests, commands, shutdown,
   handle drop - including schedules that cannot occur) and all m. *)
From Coq Require Import NArith List Lia.
From Rodbus Require Import Model.Tracker Spec.TrackerSpec Proofs.TrackerProofs.
Import ListNotations.
Local Open Scope N_scope.

(* never more than max(1, max_sessions) entries in the tracker, hence never more running sessions *)
Theorem C15_bound : forall m evs s o, run (init m) evs = Some (s, o) ->
  (length (sessions (trk s)) <= Nat.max 1 m)%nat /\ (length (live_ids (sessions (trk s))) <= Nat.max 1 m)%nat.
Proof. exact bound. Qed.
Print Assumptions C15_bound.

(* when an Accept evicts (v, a) in any reachable state: the tracker was exactly at the limit, v is
   the minimum id present, every id present is smaller than the new id, everything else is kept
   and the new session appended, v is gone; the new id is the number of connections accepted so
   far, so "minimum id" = "accepted earliest" *)
Theorem C15_oldest : forall m evs s o t' id v a,
  run (init m) evs = Some (s, o) -> add (trk s) = Some (t', id, Some (v, a)) ->
  length (sessions (trk s)) = Nat.max 1 m /\
  In (v, a) (sessions (trk s)) /\
  (forall j b, In (j, b) (sessions (trk s)) -> v <= j) /\
  (forall j b, In (j, b) (sessions (trk s)) -> j < id) /\
  sessions t' = tl (sessions (trk s)) ++ [(id, true)] /\
  ~ In v (ids (sessions t')) /\
  id = accepts_processed (init m) evs.
Proof. exact oldest. Qed.
Print Assumptions C15_oldest.

(* a connection arriving while the server runs is always accepted (a session is spawned for it and
   runs), also at the limit *)
Theorem C15_accept_always_spawns : forall m evs s o s' o', run (init m) evs = Some (s, o) -> running s = true ->
  step s (Accept true) = Some (s', o') ->
  In (Spawned (next_id (trk s))) o' /\ alive s' (next_id (trk s)) = true /\ running s' = true.
Proof. exact accept_spawns. Qed.
Print Assumptions C15_accept_always_spawns.

(* an Accept evicts nothing iff the tracker is below the limit *)
Theorem C15_evicts_only_at_limit : forall m evs s o t' id ev,
  run (init m) evs = Some (s, o) -> add (trk s) = Some (t', id, ev) ->
  (ev = None <-> (length (sessions (trk s)) < Nat.max 1 m)%nat).
Proof.
  intros m evs s o t' id ev Hrun Hadd. destruct (run_init_inv _ _ _ _ Hrun) as [[Hinv _] Hm].
  destruct (add_spec _ _ _ _ Hinv Hadd) as (_ & _ & Hev).
  destruct ev; [destruct Hev as [Hl _]; split; [discriminate|lia]|split; [lia|reflexivity]].
Qed.
Print Assumptions C15_evicts_only_at_limit.

(* Shutdown / HandleDropped in a running server: every running session gets closed, the listener
   is closed, nothing is alive afterwards and every later event list is ignored (no Accept is
   processed, no output produced, state unchanged) *)
Theorem C15_shutdown : forall s e s' o, running s = true -> (e = Shutdown \/ e = HandleDropped) ->
  step s e = Some (s', o) ->
  running s' = false /\ sessions (trk s') = [] /\ (forall id, alive s' id = false) /\
  (forall id, alive s id = true -> In (Closed id) o) /\ In ListenerClosed o /\
  (forall evs, run s' evs = Some (s', [])).
Proof. exact shutdown_closes_all. Qed.
Print Assumptions C15_shutdown.

Theorem C15_stopped_means_empty : forall m evs s o, run (init m) evs = Some (s, o) -> running s = false ->
  sessions (trk s) = [] /\ forall id, alive s id = false.
Proof. exact after_stop. Qed.
Print Assumptions C15_stopped_means_empty.

(* no session is leaked: every session ever spawned is, at any later time and under every
   schedule, still running, or has been closed by the server, or has ended on its own; hence once
   the server has stopped every spawned session has been closed or had ended by itself *)
Theorem C15_no_session_leaked : forall m evs s o, run (init m) evs = Some (s, o) ->
  forall id, In (Spawned id) o -> alive s id = true \/ In (Closed id) o \/ In (PeerGone id) evs.
Proof. intros m evs s o H id Hsp. exact (run_accounts evs _ _ _ id (sinv_init m) H (or_intror Hsp)). Qed.
Print Assumptions C15_no_session_leaked.

Theorem C15_all_closed_when_stopped : forall m evs s o, run (init m) evs = Some (s, o) -> running s = false ->
  forall id, In (Spawned id) o -> In (Closed id) o \/ In (PeerGone id) evs.
Proof.
  intros m evs s o Hrun Hr id Hsp. destruct (C15_no_session_leaked m evs s o Hrun id Hsp) as [Ha|H]; [|exact H].
  rewrite (proj2 (after_stop m evs s o Hrun Hr)) in Ha. discriminate.
Qed.
Print Assumptions C15_all_closed_when_stopped.

(* isolation, as far as this model carries it: in any reachable state the only events that end a
   running session b are its own end, the notification of its end, a stop of the server, or an
   Accept arriving at the limit while b is the oldest entry. Events of other sessions (their end,
   their notification, their requests, commands) leave b running. *)
Theorem C15_isolation : forall m evs s o e s' o' b,
  run (init m) evs = Some (s, o) -> step s e = Some (s', o') ->
  alive s b = true -> alive s' b = false ->
  e = PeerGone b \/ e = SessionEnded b \/ e = Shutdown \/ e = HandleDropped \/
  (e = Accept true /\ length (sessions (trk s)) = Nat.max 1 m /\ forall j c, In (j, c) (sessions (trk s)) -> b <= j).
Proof. exact isolation. Qed.
Print Assumptions C15_isolation.

(* a request reaches the handler exactly once iff its session is running; otherwise nothing changes *)
Theorem C15_request_effect : forall s id v s' o, step s (Request id v) = Some (s', o) ->
  (alive s id = true /\ running s = true -> o = [HandlerCall id v] /\ store s' = v /\ trk s' = trk s) /\
  (alive s id = false -> o = [] /\ s' = s).
Proof.
  intros s id v s' o H. unfold step in H. destruct (running s); cbn [negb] in H.
  - destruct (alive s id); injection H as <- <-; split; intros; try discriminate; auto. destruct H; discriminate.
  - injection H as <- <-. split; [intros [_ ?]; discriminate|auto].
Qed.
Print Assumptions C15_request_effect.

(* nothing but a request produces a handler call or changes the handler's state *)
Theorem C15_no_foreign_handler_call : forall s e s' o, step s e = Some (s', o) ->
  (forall id v, e <> Request id v) -> store s' = store s /\ forall id v, ~ In (HandlerCall id v) o.
Proof.
  intros s e s' o H Hne. split; [|intros id v Hin; exact (Hne id v (step_output _ _ _ _ _ H Hin))].
  unfold step in H. destruct (running s); cbn [negb] in H; [|now injection H as <- _].
  destruct e as [[|]| | | | | |id v]; try (now injection H as <- _).
  - destruct (add (trk s)) as [[[t' id] ev]|]; [now injection H as <- _|discriminate].
  - now destruct (Hne id v).
Qed.
Print Assumptions C15_no_foreign_handler_call.

(* the u128 id counter cannot overflow (panic) in fewer than 2^128 events *)
Theorem C15_no_panic : forall m evs, N.of_nat (length evs) <= u128_max -> run (init m) evs <> None.
Proof. exact no_panic. Qed.
Print Assumptions C15_no_panic.

(* on prompt schedules (each end of a session is notified before the next operation) the model IS
   the Spec's bounded queue with oldest-first eviction, for all scripts over the property's
   alphabet and all max_sessions: same served set, same accepting state, same handler value after
   every operation *)
Theorem C15_refines_spec : forall m ops t, trace (init m) ops = Some t -> t = strace m sinit ops.
Proof. intros m ops t. exact (trace_refines m ops (init m) t (prompt_init m)). Qed.
Print Assumptions C15_refines_spec.

(* max_sessions = 0 behaves as 1 *)
Theorem C15_zero_is_one : tracker_new 0 = tracker_new 1.
Proof. exact eq_refl. Qed.
Print Assumptions C15_zero_is_one.

(* OBSERVATION, not a finding (documents the model's behaviour under this event order): a session that has ended but whose end the server has not
   processed yet still occupies a tracker slot - the server is, from its own point of view, still at
   its limit - so an Accept arriving in that window evicts the oldest running session although
   fewer than max sessions are running. The Spec refinement is therefore stated for prompt
   schedules; bound / oldest / shutdown / isolation hold for all schedules. *)
Theorem C15_stale_slot_observation :
  exists evs s o, run (init 2) evs = Some (s, o) /\ In (Closed 0) o /\ live_ids (sessions (trk s)) = [2].
Proof.
  exists [Accept true; Accept true; PeerGone 1; Accept true; SessionEnded 1]. eexists. eexists.
  split; [vm_compute; reflexivity|]. split; [cbn; tauto|reflexivity].
Qed.
Print Assumptions C15_stale_slot_observation.

Example C15_nonvacuous :
  trace (init 2) [Connect; Connect; Connect; Garbage 1; Req 2 7; Connect; Stop; Connect]
  = Some [([0], true, 0); ([0; 1], true, 0); ([1; 2], true, 0); ([2], true, 0); ([2], true, 7);
          ([2; 3], true, 7); ([], false, 7); ([], false, 7)].
Proof. vm_compute. reflexivity. Qed.
