(* C13 - Client connection life-cycle is a legal state path; requests fail fast when down.
   Statements, each followed by Print Assumptions; the proofs are in Proofs/C13Proofs.v, C13Live.v, C13Serial.v, C13Wait.v or a few lines from it.
   The listener trace of a run is the sequence of OListen outputs, starting with the Disabled that
   TcpChannelTask::run reports before anything else (`init_outputs`).  `Lifecycle.legal` is the
   Spec automaton written from the property text.  `es` ranges over ALL event lists. *)
From Coq Require Import NArith List.
From Rodbus Require Import Spec.Lifecycle Gen.SessionErrors Model.ClientTask Model.SerialTask Proofs.ClientBase Proofs.C13Proofs Proofs.C13Live Proofs.C13Serial Proofs.C13Wait.
Import ListNotations.
Local Open Scope N_scope.

(* the listener always observes a legal path: Disabled first; Connecting only from Disabled or a
   wait state; Connected only directly after Connecting; a wait state after every failed connect
   (WaitAfterFailedConnect) or lost connection (WaitAfterDisconnect); Disabled after a disable;
   Shutdown last *)
Theorem C13_legal : forall cfg hn mt rmin rmax es,
  legal (listens_of (init_outputs ++ snd (run cfg (init hn mt rmin rmax) es))) = true.
Proof.
  intros cfg hn mt rmin rmax es. pose proof (run_good cfg es _ LDisabled (init_consistent hn mt rmin rmax)) as H.
  destruct (run cfg _ es) as [s' o]. cbn [snd]. destruct H as [H _]; [discriminate|]. rewrite listens_app. exact H.
Qed.
Print Assumptions C13_legal.

(* Shutdown at most once, and then last *)
Theorem C13_shutdown_last : forall cfg hn mt rmin rmax es,
  shutdown_last (listens_of (init_outputs ++ snd (run cfg (init hn mt rmin rmax) es))) = true.
Proof.
  intros cfg hn mt rmin rmax es. pose proof (C13_legal cfg hn mt rmin rmax es) as H. destruct (listens_of _) as [|x l]; [reflexivity|].
  cbn [legal] in H. destruct x; try discriminate. exact (path_shutdown_last l LDisabled H).
Qed.
Print Assumptions C13_shutdown_last.

(* after the task is gone nothing more is reported, and it stays gone (every later request then
   completes with Shutdown: C10_class) *)
Theorem C13_done_is_final : forall cfg s e, ph s = PDone ->
  ph (fst (step cfg s e)) = PDone /\ listens_of (snd (step cfg s e)) = [] /\ ~ In ODial (snd (step cfg s e)).
Proof. exact done_silent. Qed.
Print Assumptions C13_done_is_final.

(* while not connected a request fails at once with NoConnection instead of queueing: the phase is
   unchanged, nothing is written, no connection attempt is made *)
Theorem C13_fail_fast : forall cfg s r q, listens (ph s) = true -> connected (ph s) = false -> queue s = CReq r :: q ->
  step cfg s EvRecv = (set_chan s (q ++ firstn 1 (blocked s)) (skipn 1 (blocked s)), [OComplete (rq_id r) (RErr ReNoConnection)]).
Proof. exact c13_fail_fast. Qed.
Print Assumptions C13_fail_fast.

(* no connection attempt while disabled: a step that starts a connection attempt leaves the channel enabled.  This
   holds in every state (C13Proofs.step_dial); the statement asks it of the reachable ones only *)
Theorem C13_no_dial_while_disabled : forall cfg hn mt rmin rmax es e,
  let s := fst (run cfg (init hn mt rmin rmax) es) in
  In ODial (snd (step cfg s e)) -> enabled (fst (step cfg s e)) = true.
Proof. intros cfg hn mt rmin rmax es e. apply step_dial. Qed.
Print Assumptions C13_no_dial_while_disabled.

(* shutdown, or dropping all handles, ends the task from every state that listens to the queue,
   with exactly one Shutdown notification ... *)
Theorem C13_terminates : forall cfg s, listens (ph s) = true ->
  (forall q, queue s = CShutdown :: q -> ph (fst (step cfg s EvRecv)) = PDone /\ listens_of (snd (step cfg s EvRecv)) = [LShutdown]) /\
  (queue s = [] -> closed s = true -> ph (fst (step cfg s EvRecv)) = PDone /\ listens_of (snd (step cfg s EvRecv)) = [LShutdown]).
Proof. exact c13_terminates. Qed.
Print Assumptions C13_terminates.

(* ... and the states that do not listen end by themselves: a request in flight is over at the
   latest when its timer fires (a write in progress: C10_no_stuck_writing) *)
Theorem C13_in_flight_ends : forall cfg s r tx d, ph s = PInFlight r tx d -> fire cfg d <= now s ->
  let s2 := fst (step cfg s EvTimer) in listens (ph s2) = true \/ ph s2 = PDone.
Proof. exact c13_in_flight_ends. Qed.
Print Assumptions C13_in_flight_ends.

(* liveness, from EVERY state (whatever the phase, whatever is queued in front): once a Shutdown
   command is in the queue, or once every handle is gone, the task's own steps (recv, its timers,
   the clock) lead to termination; `internal` admits only EvRecv / EvTimer / EvTick *)
Theorem C13_shutdown_from_every_state : forall cfg s,
  (queue s = [] -> blocked s = []) -> In CShutdown (queue s ++ blocked s) -> ph s <> PDone ->
  exists es, forallb internal es = true /\ ph (fst (run cfg s es)) = PDone.
Proof. exact shutdown_from_every_state. Qed.
Print Assumptions C13_shutdown_from_every_state.

Theorem C13_drop_all_handles_from_every_state : forall cfg s,
  handles s = 0%nat -> blocked s = [] -> ph s <> PDone ->
  exists es, forallb internal es = true /\ ph (fst (run cfg s es)) = PDone.
Proof. intros cfg s. exact (closed_terminates cfg (length (queue s)) s (le_n _)). Qed.
Print Assumptions C13_drop_all_handles_from_every_state.

(* an instance: a request whose write is parked by a transport that takes nothing and is never released, Shutdown queued
   behind it: at write start + request timeout the request fails, the listener hears WaitAfterDisconnect, and the
   Shutdown command is taken at that same instant *)
Example C13_shutdown_behind_a_parked_write :
  let cfg := {| cfg_cap := 4; cfg_res := 1 |} in
  let rq i := CReq {| rq_id := i; rq_kind := KRead; rq_timeout := 50 |} in
  let '(s, o) := run cfg (init 1 None 20 40)
    [EvSubmit CEnable SFuture; EvRecv; EvConnect true; EvWritePark; EvSubmit (rq 1%nat) SFuture; EvRecv; EvSubmit CShutdown SFuture;
     EvRecv; EvTick 49; EvTimer; EvRecv; EvTick 1; EvTimer; EvRecv] in
  ph s = PDone /\ now s = 50 /\
  o = [OListen LConnecting; ODial; OListen LConnected; OStamp 0 1; OComplete 1 (RErr ReIo); OEnd SeIoError; OListen (LWaitDisc 20); OListen LShutdown].
Proof. vm_compute. repeat split. Qed.

(* a disable closes an open connection and is reported as Disabled; while a request is in flight it
   waits in the queue until that transaction is over *)
Theorem C13_disable_closes : forall cfg s q, ph s = PIdle -> queue s = CDisable :: q ->
  let s' := fst (step cfg s EvRecv) in
  snd (step cfg s EvRecv) = [OEnd SeDisabled; OListen LDisabled] /\ ph s' = PWaitEnabled /\ enabled s' = false.
Proof.
  intros cfg s q Hp Hq. cbn [step]. rewrite Hp, Hq. cbn [listens]. unfold take. cbn [ph set_chan]. rewrite Hp.
  cbn [change_setting enabled set_enabled set_chan]. unfold end_session, loop_top. cbn. auto.
Qed.
Print Assumptions C13_disable_closes.

Theorem C13_disable_waits_for_transaction : forall cfg s r tx d, ph s = PInFlight r tx d -> step cfg s EvRecv = (s, []).
Proof. intros cfg s r tx d Hp. cbn [step]. rewrite Hp. reflexivity. Qed.
Print Assumptions C13_disable_waits_for_transaction.

(* the wait states end exactly at wait_start + delay.
   PWaiting u carries the deadline u = (instant the listener was told) + (announced delay).  Whatever
   happens in a wait state - requests failed fast, redundant enables, decode-level changes, submissions,
   the clock advancing - the phase and its deadline stay as they are; the state is left only by the end
   of the task, by a disable, or by its own timer at or after the deadline ... *)
Theorem C13_wait_deadline_unchanged : forall cfg s u e, ph s = PWaiting u ->
  let s' := fst (step cfg s e) in
  ph s' = PWaiting u \/ left_early s' \/ (e = EvTimer /\ fire cfg u <= now s).
Proof. exact wait_step. Qed.
Print Assumptions C13_wait_deadline_unchanged.

(* ... in particular handling a command: a client polled faster than the retry delay still reconnects *)
Theorem C13_wait_command_keeps_deadline : forall cfg s u c q, ph s = PWaiting u -> enabled s = true -> queue s = c :: q ->
  (exists r, c = CReq r) \/ c = CEnable \/ (exists l, c = CDecode l) ->
  ph (fst (step cfg s EvRecv)) = PWaiting u.
Proof. exact wait_command_keeps_deadline. Qed.
Print Assumptions C13_wait_command_keeps_deadline.

(* ... over whole runs (ALL event lists): still the same wait with the same deadline, or a first step
   left it for one of the three reasons ... *)
Theorem C13_wait_run : forall cfg es s u, ph s = PWaiting u ->
  ph (fst (run cfg s es)) = PWaiting u \/
  exists es1 e es2, es = (es1 ++ e :: es2)%list /\
    let s1 := fst (run cfg s es1) in ph s1 = PWaiting u /\
    (left_early (fst (step cfg s1 e)) \/ (e = EvTimer /\ fire cfg u <= now s1)).
Proof. exact wait_run. Qed.
Print Assumptions C13_wait_run.

(* ... and the timer does end it: nothing before fires_at(u), the next Connecting + dial from then on *)
Theorem C13_wait_ends_at_deadline : forall cfg s u, ph s = PWaiting u -> enabled s = true ->
  step cfg s EvTimer = if fire cfg u <=? now s then (set_ph s PConnecting, [OListen LConnecting; ODial]) else (s, []).
Proof. exact wait_timer. Qed.
Print Assumptions C13_wait_ends_at_deadline.

(* non-vacuity: six commands 3 apart during a 20 wait; the reconnect is at 20, not at 18 + 20 *)
Example C13_wait_nonvacuous :
  let cfg := {| cfg_cap := 4; cfg_res := 1 |} in
  let poll := [EvTick 3; EvSubmit CEnable SFuture; EvRecv; EvTimer] in
  listens_of (snd (run cfg (init 1 None 20 40)
     ([EvSubmit CEnable SFuture; EvRecv; EvConnect false] ++ poll ++ poll ++ poll ++ poll ++ poll ++ poll ++ [EvTick 1; EvTimer; EvTick 1; EvTimer])))
  = [LConnecting; LWaitFailed 20; LConnecting] /\
  now (fst (run cfg (init 1 None 20 40)
     ([EvSubmit CEnable SFuture; EvRecv; EvConnect false] ++ poll ++ poll ++ poll ++ poll ++ poll ++ poll ++ [EvTick 1; EvTimer; EvTick 1; EvTimer]))) = 20.
Proof. vm_compute. split; reflexivity. Qed.

(* serial channels (PortState).
   The serial task (Model/SerialTask.v) is the same outer loop with the port opened synchronously:
   whenever a step ends in the connecting phase the open result (environment) is applied at once.
   Its PortState trace (no Connecting notification, one Wait state, Open for Connected) is a legal
   path of the Spec automaton `plegal` for ALL serial event lists ... *)
Theorem C13_serial_legal : forall cfg hn rmin rmax es,
  plegal (port_trace (init_outputs ++ snd (srun cfg (sinit hn rmin rmax) es))) = true.
Proof. exact serial_legal. Qed.
Print Assumptions C13_serial_legal.

(* ... and every serial run is a run of the TCP system on the event list with the open results
   inserted (same outputs, same final task state), so the theorems stated for all TCP event lists
   (exactly once, timeouts, fail fast, termination) hold for the serial channel as well *)
Theorem C13_serial_is_tcp_run : forall cfg es x,
  snd (srun cfg x es) = snd (run cfg (ss x) (expand cfg x es)) /\
  ss (fst (srun cfg x es)) = fst (run cfg (ss x) (expand cfg x es)).
Proof. exact serial_is_tcp_run. Qed.
Print Assumptions C13_serial_is_tcp_run.

(* non-vacuity: refused, accepted then closed, disable while waiting, enable, shutdown *)
Example C13_nonvacuous :
  let cfg := {| cfg_cap := 4; cfg_res := 1 |} in
  listens_of (init_outputs ++ snd (run cfg (init 1 None 20 40)
     [EvSubmit CEnable SFuture; EvRecv; EvConnect false; EvTick 20; EvTimer; EvConnect true; EvEof;
      EvSubmit CDisable SFuture; EvRecv; EvSubmit CEnable SFfi; EvRecv; EvSubmit CShutdown SFuture; EvRecv]))
  = [LDisabled; LConnecting; LWaitFailed 20; LConnecting; LConnected; LWaitDisc 20; LDisabled; LConnecting; LShutdown].
Proof. vm_compute. reflexivity. Qed.
