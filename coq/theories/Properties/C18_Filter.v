(* C18: the address filter built through the C ABI is the Rust API's filter built the documented way.
   Only statements, closed by `exact`, each followed by Print Assumptions. *)
From Coq Require Import List String.
From Rodbus Require Import Gen.FfiTables Model.Filter Spec.FfiFilterSpec Model.FfiFilter.
From Rodbus Require Proofs.FfiFilterProofs.
Import ListNotations.
Module P := Rodbus.Proofs.FfiFilterProofs.

(* For EVERY string and every sequence of further strings (any IPv6 literal parser): rodbus_address_filter_create(s)
   followed by rodbus_address_filter_add(a_1) .. (a_n) - interpreted over the parse order and the add arms REGENERATED from
   ffi server.rs - builds the filter and returns the codes the Spec prescribes: an IP address gives the one-element set
   (tried BEFORE the wildcard reading), anything else a wildcard or InvalidIpAddress; only a set can be extended, a failed
   add leaves the filter as it was. *)
Theorem C18_filter_build : forall parse_v6 s adds, ffi_filter_build parse_v6 s adds = filter_build_spec parse_v6 s adds.
Proof. exact P.build_is_spec. Qed.
Print Assumptions C18_filter_build.

(* in particular a plain IPv4 string gives AnyOf{that address} and a following add succeeds: create("127.0.0.1"),
   add("127.0.0.2") = AnyOf{127.0.0.1, 127.0.0.2} *)
Theorem C18_filter_plain_ip_extendable : forall parse_v6 s a t b, parse_ipv4 s = Some a -> parse_ip parse_v6 t = Some b ->
  ffi_filter_build parse_v6 s [t] = Some (AnyOf [a; b], [true]).
Proof. exact P.plain_ip_extendable. Qed.
Print Assumptions C18_filter_plain_ip_extendable.

Theorem C18_filter_add_arms : add_arms_known filter_add_arms = true /\ map fst filter_add_arms = ["Any"; "AnyOf"; "WildcardIpv4"]%string.
Proof. exact P.arms_known. Qed.
Print Assumptions C18_filter_add_arms.
