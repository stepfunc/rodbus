(* The RTU server task loop (serial/server.rs RtuServerTask::run) over the serial session:
   open -> session.run -> on any non-Shutdown error wait after_disconnect() in sleep_for -> re-open,
   with the SAME SessionTask. Each theorem is followed by Print Assumptions; the lemmas used are in Proofs/.

   rtu_server_task (Model/ServerRun.v over Model/RtuServerLoop.v) takes a list of episodes: the open
   attempt fails and the task waits (EpOpenFails wait), or the port opens and the session runs on
   its select! outcomes, then waits (EpOpen sess wait). Wait events: WCommand c | WClosed | WAdvance dt
   (virtual nanoseconds). The retry strategy is Model/Retry.v (C14). Below this level the reader /
   parser also persist (C05/C06). *)
From Coq Require Import NArith List.
From Rodbus Require Import Base.ServerTypes Base.ServerRun Model.Retry Model.RtuServerLoop Model.Server Model.ServerRun
  Proofs.ServerRunProofs Proofs.RtuServerLoopProofs.
Import ListNotations.
Local Open Scope N_scope.

Notation reset r := {| dmin := dmin r; dmax := dmax r; cur := dmin r |}.

(* handler state (and the decode level) persist across re-opens: after a session that ended with an
   error and a wait of the strategy's minimum delay, the next open port is served from exactly the
   handler states the failed session left; replies and calls of the task are the concatenation *)
Theorem C01_rtu_reopen_keeps_state : forall (St : Type) (H : handler St) units d retry sess wait rest ws u lg d1 e d2,
  session_run H LRtu NoAuth units d sess = (ws, u, lg, d1, e) -> reopens e = true ->
  sleep_for (dmin retry) d1 wait = (d2, SleepElapsed) ->
  rtu_server_task H units d retry (EpOpen sess wait :: rest) =
    (let '(ws', u', lg', d', r, e') := rtu_server_task H u d2 (reset retry) rest in (ws :: ws', u', lg ++ lg', d', r, e')).
Proof. exact (fun St H => @reopen_keeps_state St serr (handle_frame H LRtu NoAuth)). Qed.
Print Assumptions C01_rtu_reopen_keeps_state.

Theorem C01_rtu_open_failure_keeps_state : forall (St : Type) (H : handler St) units d retry retry' delay wait rest d2,
  step retry Fail = Some (retry', Some delay) -> sleep_for delay d wait = (d2, SleepElapsed) ->
  rtu_server_task H units d retry (EpOpenFails wait :: rest) =
    (let '(ws, u, lg, d', r, e) := rtu_server_task H units d2 retry' rest in ([] :: ws, u, lg, d', r, e)).
Proof. exact (fun St H => @open_failure_keeps_state St serr (handle_frame H LRtu NoAuth)). Qed.
Print Assumptions C01_rtu_open_failure_keeps_state.

(* Shutdown (or the closing of the command channel) ends the task from every state: port open ... *)
Theorem C01_rtu_shutdown_while_open : forall (St : Type) (H : handler St) units d retry pre ev post wait rest ws u lg d1 e,
  ends ev -> session_run H LRtu NoAuth units d pre = (ws, u, lg, d1, e) -> (e = ROpen \/ exists r, e = RBlocked r) ->
  rtu_server_task H units d retry (EpOpen (pre ++ ev :: post) wait :: rest) = ([ws], u, lg, d1, reset retry, TShutdown).
Proof. exact (fun St H => @shutdown_while_open St serr (handle_frame H LRtu NoAuth)). Qed.
Print Assumptions C01_rtu_shutdown_while_open.

(* ... waiting after a session that failed ... *)
Theorem C01_rtu_shutdown_while_waiting : forall (St : Type) (H : handler St) units d retry sess pre ev post rest ws u lg d1 e d2 rem,
  wends ev -> session_run H LRtu NoAuth units d sess = (ws, u, lg, d1, e) -> reopens e = true ->
  sleep_for (dmin retry) d1 pre = (d2, SleepWaiting rem) ->
  rtu_server_task H units d retry (EpOpen sess (pre ++ ev :: post) :: rest) = ([ws], u, lg, d2, reset retry, TShutdown).
Proof. exact (fun St H => @shutdown_while_waiting_after_session St serr (handle_frame H LRtu NoAuth)). Qed.
Print Assumptions C01_rtu_shutdown_while_waiting.

(* ... waiting after a failed open attempt *)
Theorem C01_rtu_shutdown_while_waiting_to_open : forall (St : Type) (H : handler St) units d retry retry' delay pre ev post rest d2 rem,
  wends ev -> step retry Fail = Some (retry', Some delay) -> sleep_for delay d pre = (d2, SleepWaiting rem) ->
  rtu_server_task H units d retry (EpOpenFails (pre ++ ev :: post) :: rest) = ([[]], units, [], d2, retry', TShutdown).
Proof. exact (fun St H => @shutdown_while_waiting_after_open_failure St serr (handle_frame H LRtu NoAuth)). Qed.
Print Assumptions C01_rtu_shutdown_while_waiting_to_open.

(* sleep_for: a decode level change is applied and the wait goes on with the same time left ... *)
Theorem C01_rtu_wait_applies_level : forall rem d x rest,
  sleep_for rem d (WCommand (ChangeDecoding x) :: rest) = sleep_for rem x rest.
Proof. reflexivity. Qed.
Print Assumptions C01_rtu_wait_applies_level.

(* ... it never ends before the delay has passed, whatever commands arrive (a sleep_for that returned
   after one command would) ... *)
Theorem C01_rtu_wait_not_shortened : forall evs rem d, advance_total evs < rem -> snd (sleep_for rem d evs) <> SleepElapsed.
Proof. exact sleep_not_early. Qed.
Print Assumptions C01_rtu_wait_not_shortened.

(* ... and it does end once the delay has passed, whatever level changes arrive *)
Theorem C01_rtu_wait_elapses : forall evs rem d, no_wend evs -> 0 < rem -> rem <= advance_total evs ->
  snd (sleep_for rem d evs) = SleepElapsed.
Proof. exact sleep_elapses. Qed.
Print Assumptions C01_rtu_wait_elapses.

(* level changes anywhere - in sessions and in waits - are unobservable for the whole task *)
Theorem C01_rtu_levels_unobservable : forall (St : Type) (H : handler St) eps units d d' retry,
  tobs (rtu_server_task H units d retry eps) = tobs (rtu_server_task H units d' retry (estrip eps)).
Proof. exact (fun St H => @levels_unobservable St serr (handle_frame H LRtu NoAuth)). Qed.
Print Assumptions C01_rtu_levels_unobservable.
