(* C01 with the session's command channel (also the proof-level counterpart of C20's "a level change
   never interrupts or reorders" and of C15/C07's "a session ends when told to").
   Each theorem is followed by Print Assumptions; the lemmas used are in Proofs/.

   session_run (Model/ServerRun.v over Base/ServerRun.v) is SessionTask::run as a transition system
   over the list of select! outcomes: parked in run_one: EFrame f (next_frame returned f) |
   ECommand c | EClosed (recv() = None); parked in write_reply: EWriteDone | EWriteFailed | ECommand c | EClosed.
   Every arrival order and every tie-break of select! is some event list; all statements are for
   ALL event lists, handler machines, unit maps, policies. The frames are "frames delivered by the
   reader" (C05/C06). *)
From Coq Require Import NArith List.
From Rodbus Require Gen.WritePath.
From Rodbus Require Import Base.Outcome Base.ServerTypes Base.ServerRun Model.Server Model.ServerRun
  Spec.Modbus Proofs.ServerRunProofs.
Import ListNotations.
Local Open Scope N_scope.

(* ChangeDecoding, at ANY positions and in any number - between requests or while a reply write is
   pending - changes no reply byte, no handler call, no handler state and not how the session ends:
   the run equals the run of the event list with every ChangeDecoding removed, from any initial level *)
Theorem C01_commands_unobservable : forall (St : Type) (H : handler St) l a units d d' evs,
  observable (session_run H l a units d evs) = observable (session_run H l a units d' (strip evs)).
Proof. intros. apply unobservable. Qed.
Print Assumptions C01_commands_unobservable.

Theorem C01_command_insert_unobservable : forall (St : Type) (H : handler St) l a units d pre post lvl,
  observable (session_run H l a units d (pre ++ ECommand (ChangeDecoding lvl) :: post)) =
  observable (session_run H l a units d (pre ++ post)).
Proof. intros. apply run_insert_unobservable. Qed.
Print Assumptions C01_command_insert_unobservable.

(* after Shutdown, or once the command channel is closed, nothing that follows matters: no further
   frame is handled, nothing further is written, a pending reply is dropped, the session has ended *)
Theorem C01_shutdown_ends : forall (St : Type) (H : handler St) l a units d pre ev post, ends ev ->
  session_run H l a units d (pre ++ ev :: post) = close (session_run H l a units d pre).
Proof. intros * Hev. apply run_shutdown_ends, Hev. Qed.
Print Assumptions C01_shutdown_ends.

(* write_reply: a request whose reply write is pending has had its effect on the handlers; decode
   level changes that arrive meanwhile are applied; Shutdown / a closed channel then end the session
   WITHOUT the reply ... *)
Theorem C01_write_cut : forall (St : Type) (H : handler St) l a units d f b bs units' lg levels ev post,
  handle_frame H l a units f = (Ok (b :: bs), units', lg) -> ends ev ->
  session_run H l a units d (EFrame f :: changes levels ++ ev :: post) = ([], units', lg, last levels d, RShutdown).
Proof. intros *. apply run_write_cut. Qed.
Print Assumptions C01_write_cut.

(* ... if io.write returns an error the session ends with it (RequestError::Io): handler effects in
   place, reply not delivered, nothing further handled ... *)
Theorem C01_write_failed : forall (St : Type) (H : handler St) l a units d f b bs units' lg levels post,
  handle_frame H l a units f = (Ok (b :: bs), units', lg) ->
  session_run H l a units d (EFrame f :: changes levels ++ EWriteFailed :: post) = ([], units', lg, last levels d, RIo).
Proof. intros *. apply run_write_failed. Qed.
Print Assumptions C01_write_failed.

(* the write step of the model and the code's write_reply (shape regenerated in Gen/WritePath.v): ONE write per
   reply, raced against the command loop - a decode level change leaves the same write pending (nothing is
   re-sent), its completion delivers the reply exactly once *)
Theorem C01_write_reply_shape : forall (St E : Type) (hf : ucfg St -> frame -> outcome E (list N) * ucfg St * list event) units d r lvl rest,
  Rodbus.Gen.WritePath.write_reply_shape = Rodbus.Gen.WritePath.WriteOnceRacedAgainstCommands /\
  run hf units d (MWriting r) (ECommand (ChangeDecoding lvl) :: rest) = run hf units lvl (MWriting r) rest /\
  run hf units d (MWriting r) (EWriteDone :: rest) =
    (let '(ws, u, lg, dd, e) := run hf units d MIdle rest in (r :: ws, u, lg, dd, e)).
Proof. repeat split. Qed.
Print Assumptions C01_write_reply_shape.

(* ... and if the write completes first, the reply is delivered and the loop goes on *)
Theorem C01_write_done : forall (St : Type) (H : handler St) l a units d f b bs units' lg levels rest,
  handle_frame H l a units f = (Ok (b :: bs), units', lg) ->
  session_run H l a units d (EFrame f :: changes levels ++ EWriteDone :: rest) =
    (let '(ws, u, lg', dd, e) := session_run H l a units' (last levels d) rest in ((b :: bs) :: ws, u, lg ++ lg', dd, e)).
Proof. intros *. apply run_write_done. Qed.
Print Assumptions C01_write_done.

(* the loop over the code's frame handler = the same loop over the reference server (C01_frame) *)
Theorem C01_commands_refine : forall (St : Type) (H : handler St) l a units d evs, events_ok l evs ->
  session_run H l a units d evs = run (fun u f => ok_result (ref_handle_frame H l a u f)) units d MIdle evs.
Proof. exact @session_run_refines. Qed.
Print Assumptions C01_commands_refine.

Theorem C01_commands_never_fail : forall (St : Type) (H : handler St) l a units d evs, events_ok l evs ->
  no_failure (snd (session_run H l a units d evs)).
Proof. intros * Hok. rewrite session_run_refines by assumption. apply ok_run_end. Qed.
Print Assumptions C01_commands_never_fail.

(* without commands and with every write completing at once this is the session of C01_tcp / C01_rtu
   (`delivered` drops the silent entries) *)
Theorem C01_plain_session : forall (St : Type) (H : handler St) l a d frames units,
  observable (session_run H l a units d (plain frames)) =
    (let '(rs, u, lg, e) := session H l a units frames in (delivered rs, u, lg, end_of e)).
Proof. exact @plain_run_is_session. Qed.
Print Assumptions C01_plain_session.
