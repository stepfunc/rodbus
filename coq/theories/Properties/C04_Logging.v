(* C04 / C07 / C20 on the logging paths: at decode levels above Nothing the library walks requests
   and replies - peer-controlled data - in Display impls (Model/ClientLogging.v: BitIteratorDisplay,
   RegisterIteratorDisplay, RequestDetailsDisplay / WriteMultipleIterator, the per-request
   handle_response logging, format_bytes). For every well-formed request / reply and EVERY
   AppDecodeLevel (Gen/DecodeLevels.v, regenerated from decode.rs) the walk returns without Panic,
   writes exactly the elements the decoder yields, and does not change the result.
   The iterator walks are shared with the server side (RequestDisplay of write-multiple requests,
   Loggable for BitWriter / RegisterWriter): C04_log_bits_walk / C04_log_registers_walk are stated
   for any validated range and any data of the right length.
   Statements with short proofs from the lemmas of Proofs/, each followed by Print Assumptions. *)
From Coq Require Import NArith List.
From Rodbus Require Import Base.Outcome Base.ClientTypes Model.ClientRequest Model.ClientLogging Spec.ClientCodecSpec Gen.DecodeLevels Proofs.ClientReplyProofs Proofs.ClientLoggingProofs.
Import ListNotations.
Local Open Scope N_scope.

(* BitIteratorDisplay over a validated range (also one ending at address 65535) and ceil(n/8) data
   bytes: the range, and at data_values exactly the n decoded bits at start .. start+n-1 *)
Theorem C04_log_bits_walk : forall lv bytes s n, range_wf (s, n) -> len bytes = bytes_for_bits n ->
  bit_iter_display lv bytes (s, n) = Ok (bits_log lv (s, n) (indexed s (bit_at bytes) n)).
Proof. exact bit_iter_display_spec. Qed.
Print Assumptions C04_log_bits_walk.

(* RegisterIteratorDisplay (RegisterIterator::next: exhaustion check first, then the index) *)
Theorem C04_log_registers_walk : forall lv bytes s n, range_wf (s, n) -> Forall is_u8 bytes -> len bytes = 2 * n ->
  reg_iter_display lv bytes (s, n) = Ok (regs_log lv (s, n) (indexed s (reg_at bytes) n)).
Proof. exact reg_iter_display_spec. Qed.
Print Assumptions C04_log_registers_walk.

(* "PDU TX": logging a request the API constructed (write-multiple: WriteMultipleIterator) never
   panics and writes the range and, at data_values, every value at its address *)
Theorem C04_log_request : forall lv c r, call_wf c -> build c = Ok r -> request_display lv r = Ok (request_log lv r).
Proof. exact request_display_spec. Qed.
Print Assumptions C04_log_request.

Theorem C04_log_request_elements : forall A (values : list A) start pos k d dv, (k < length values)%nat ->
  nth k (numbered start pos values) d = (start + pos + N.of_nat k, nth k values dv).
Proof. exact @numbered_nth. Qed.
Print Assumptions C04_log_request_elements.

(* "PDU RX": handle_response with its logging equals handle_response plus exactly the expected log
   (reads: the range and at data_values the very elements returned; writes: the echo at data_headers) *)
Theorem C04_log_response : forall lv r pdu, request_wf r -> Forall is_u8 pdu ->
  handle_response_logged lv r pdu =
  match handle_response r pdu with
  | Ok v => Ok (v, response_log lv r v)
  | Err e => Err e
  | Panic => Panic
  end.
Proof. exact handle_response_logged_spec. Qed.
Print Assumptions C04_log_response.

(* ... so it never panics, at any level ... *)
Theorem C04_log_no_panic : forall lv r pdu, request_wf r -> Forall is_u8 pdu -> handle_response_logged lv r pdu <> Panic.
Proof.
  intros lv r pdu Hwf Hb. rewrite handle_response_logged_spec by assumption.
  pose proof (response_total r pdu Hwf) as Ht. destruct (handle_response r pdu); [discriminate|discriminate|contradiction].
Qed.
Print Assumptions C04_log_no_panic.

(* ... and the level has no effect on what the caller gets (C20 for this path) *)
Theorem C04_log_no_effect : forall lv lv' r pdu, request_wf r -> Forall is_u8 pdu ->
  omap fst (handle_response_logged lv r pdu) = omap fst (handle_response_logged lv' r pdu) /\
  omap fst (handle_response_logged lv r pdu) = handle_response r pdu.
Proof.
  intros lv lv' r pdu. intros Hwf Hb. rewrite !handle_response_logged_spec by assumption. destruct (handle_response r pdu); split; reflexivity.
Qed.
Print Assumptions C04_log_no_effect.

(* format_bytes (frame / physical level dumps): every byte once, in order *)
Theorem C04_log_format_bytes : forall bytes, concat (format_bytes bytes) = bytes.
Proof. exact format_bytes_concat. Qed.
Print Assumptions C04_log_format_bytes.

(* non-vacuity: a reply whose range ends at address 65535, logged at DataValues; 10 coils (not a
   multiple of 8) *)
Example C04_log_example_registers :
  handle_response_logged AlDataValues (RReadHoldingRegisters (65534, 2)) [3; 4; 1; 2; 3; 4]
  = Ok (RespRegisters [(65534, 258); (65535, 772)], [LgRange (65534, 2); LgReg (65534, 258); LgReg (65535, 772)]).
Proof. vm_compute. reflexivity. Qed.
Example C04_log_example_bits :
  omap (fun x => length (snd x)) (handle_response_logged AlDataValues (RReadCoils (65526, 10)) [1; 2; 205; 1]) = Ok 11%nat.
Proof. vm_compute. reflexivity. Qed.
Example C04_log_example_headers_only :
  omap snd (handle_response_logged AlDataHeaders (RReadCoils (65526, 10)) [1; 2; 205; 1]) = Ok [LgRange (65526, 10)].
Proof. vm_compute. reflexivity. Qed.
