(* C04 at full strength (with C05 and C11): the client as a whole - bytes of one connection arriving
   in arbitrary read chunks, the production reader (ReadBuffer + MBAP parser + next_frame loop,
   Model/Reader.v), then the client task's execute_request loop (Model/ClientTask.v) with request
   r in flight under transaction id t, calling Request::handle_response (Model/ClientRequest.v) on
   the first frame that carries t - equals the reference of Spec/SystemClientSpec.v: cut the stream
   by the MBAP length field alone; the first frame with transaction id t decides (genuine reply ->
   its value; well-formed exception reply -> its code; otherwise bad reply); if the stream breaks
   the framing rules / ends / falls silent before such a frame, that is the outcome.
   Composition of C05_chunking (reader = ref_frames for every chunk schedule), C04_ok_iff /
   C04_exception_only / C04_exception / C04_total (handle_response = ref_reply / ref_exception) and
   C11_mismatch / C12_exact_frame / C10 (the task skips other ids, completes on the matching one,
   fails on a read error).  `st` is ANY task state with r in flight (whatever is queued, whatever
   the counters); `reqs` gives the Modbus content of each request id; all chunks arrive before the
   request's timer instant (no EvTimer is due: C12_exact_timer).
   Statements with short proofs from the lemmas of Proofs/, each followed by Print Assumptions. *)
From Coq Require Import NArith List.
From Rodbus Require Import Gen.SessionErrors.
From Rodbus Require Base.Frame Base.ClientTypes Model.ClientTask Spec.Framing Spec.ClientCodecSpec Spec.SystemClientSpec Model.SystemClient Proofs.ClientSystemProofs.
Import ListNotations.
Module F := Rodbus.Base.Frame.
Module CT := Rodbus.Base.ClientTypes.
Module CS := Rodbus.Spec.ClientCodecSpec.
Module T := Rodbus.Model.ClientTask.
Module SS := Rodbus.Spec.SystemClientSpec.
Import SystemClient ClientSystemProofs.

(* EVERY byte stream s, EVERY cut of s into non-empty reads, every way the stream behaves after s:
   what the caller of r observes (the value handle_response produced for its promise, or the error
   the task failed it with) is the Spec's verdict, and the task model's own completion record for
   r is the class of that verdict *)
Theorem C04_system : forall cfg reqs st r t d,
  T.ph st = T.PInFlight r t d -> T.partial st = None -> CT.request_wf (reqs (T.rq_id r)) ->
  forall s chunks fi, concat chunks = s -> Forall (fun c => c <> []) chunks ->
  verdict_for (T.rq_id r) (client_system cfg reqs st chunks fi) = SS.ref_client_result (reqs (T.rq_id r)) t s fi /\
  first_completion (T.rq_id r) (snd (fst (client_system cfg reqs st chunks fi))) = task_class (SS.ref_client_result (reqs (T.rq_id r)) t s fi).
Proof.
  intros cfg reqs st r t d Hph Hp Hwf s chunks fi Hc Hne.
  rewrite (client_system_frames cfg reqs st s), ref_client_result_decided by assumption. exact (task_on_ref cfg reqs st r t d Hph Hp Hwf _ _).
Qed.
Print Assumptions C04_system.

(* the verdict, clause by clause (readings of the Spec; `first_with_tx t s fi` is the first frame
   with transaction id t among the frames the length fields cut from s) *)
Theorem C04_system_ok_iff : forall mr t s fi v, SS.ref_client_result mr t s fi = SS.VValue v <->
  exists f, first_with_tx t s fi = Some f /\ CS.ref_reply mr (F.f_pdu f) = Some v.
Proof. intros. rewrite ref_client_result_decided. apply decided_value. Qed.
Print Assumptions C04_system_ok_iff.

Theorem C04_system_exception_iff : forall mr t s fi c, SS.ref_client_result mr t s fi = SS.VException c <->
  exists f, first_with_tx t s fi = Some f /\ CS.ref_reply mr (F.f_pdu f) = None /\ CS.ref_exception mr (F.f_pdu f) = Some c.
Proof. intros. rewrite ref_client_result_decided. apply decided_exception. Qed.
Print Assumptions C04_system_exception_iff.

Theorem C04_system_bad_frame_iff : forall mr t s fi, SS.ref_client_result mr t s fi = SS.VBadFrame <->
  first_with_tx t s fi = None /\ exists e, snd (Framing.ref_frames s fi) = F.EndBad e.
Proof. intros. rewrite ref_client_result_decided. apply decided_bad_frame. Qed.
Print Assumptions C04_system_bad_frame_iff.

(* a framing error (resp. EOF / I/O error) before a matching frame ends the connection: the run
   reports the end of the session with that reason *)
Theorem C04_system_connection_ends : forall cfg reqs st r t d,
  T.ph st = T.PInFlight r t d -> T.partial st = None -> CT.request_wf (reqs (T.rq_id r)) ->
  forall s chunks fi, concat chunks = s -> Forall (fun c => c <> []) chunks ->
  (SS.ref_client_result (reqs (T.rq_id r)) t s fi = SS.VBadFrame -> In (T.OEnd SeBadFrame) (snd (fst (client_system cfg reqs st chunks fi)))) /\
  (SS.ref_client_result (reqs (T.rq_id r)) t s fi = SS.VIo -> In (T.OEnd SeIoError) (snd (fst (client_system cfg reqs st chunks fi)))).
Proof.
  intros cfg reqs st r t d Hph Hp Hwf s chunks fi Hc Hne.
  rewrite (client_system_frames cfg reqs st s), ref_client_result_decided by assumption. exact (task_on_connection_ends cfg reqs st r t d Hph Hp Hwf _ _).
Qed.
Print Assumptions C04_system_connection_ends.

(* the result does not depend on how the network segments the stream *)
Theorem C04_system_chunking_independent : forall cfg reqs st r t d,
  T.ph st = T.PInFlight r t d -> T.partial st = None -> CT.request_wf (reqs (T.rq_id r)) ->
  forall c1 c2 fi, concat c1 = concat c2 -> Forall (fun c => c <> []) c1 -> Forall (fun c => c <> []) c2 ->
  verdict_for (T.rq_id r) (client_system cfg reqs st c1 fi) = verdict_for (T.rq_id r) (client_system cfg reqs st c2 fi).
Proof.
  intros cfg reqs st r t d Hph Hp Hwf c1 c2 fi Hc H1 H2.
  rewrite (proj1 (C04_system cfg reqs st r t d Hph Hp Hwf (concat c1) c1 fi eq_refl H1)).
  now rewrite (proj1 (C04_system cfg reqs st r t d Hph Hp Hwf (concat c1) c2 fi (eq_sym Hc) H2)).
Qed.
Print Assumptions C04_system_chunking_independent.

(* non-vacuity: read 2 holding registers from 16, written with transaction id 7; the peer sends a
   stale reply (id 6), then the genuine one, cut into odd chunks *)
Example C04_system_nonvacuous :
  let cfg := {| T.cfg_cap := 4; T.cfg_res := 1 |} in
  let rq := {| T.rq_id := 3; T.rq_kind := T.KRead; T.rq_timeout := 1000 |} in
  let st := T.set_ph (T.init 1 None 5 9) (T.PInFlight rq 7 1000) in
  verdict_for 3 (client_system cfg (fun _ => CT.RReadHoldingRegisters (16, 2)%N) st
                   [[0;6;0;0;0;7;1;3;4]; [0;1;0;2;0;7;0]; [0;0;7;1;3;4;171]; [205;0;5]]%N F.FinPending)
  = SS.VValue (CT.RespRegisters [(16, 43981); (17, 5)]%N).
Proof. vm_compute. reflexivity. Qed.
