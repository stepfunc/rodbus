(* C07 - No peer input can panic, wedge or silently kill a task.
   The statements, each followed by Print Assumptions; every proof is `exact` a theorem of Proofs/.
   "Panic" is an explicit outcome of the models (integer overflow with overflow checks on, slice
   indexing, unwrap/expect); the theorems say it is unreachable for ALL inputs. "Wedge" = the
   reader loop not consuming input (out of fuel). "Stops honouring shutdown" = the task models.
   (One module per layer only because the layers' models reuse constructor names.) *)
From Coq Require Import NArith List Bool Arith.
Import ListNotations.
From Rodbus Require Spec.Framing Base.Outcome Base.Frame Gen.Consts Gen.RtuLengths Model.Buffer Model.Mbap Model.Rtu Model.Reader
  Proofs.BufferProofs Proofs.MbapProofs Proofs.RtuProofs Proofs.ReaderGeneric Proofs.C05Proofs
  Base.ClientTypes Model.ClientRequest Proofs.ClientReplyProofs Proofs.ClientCodecProofs
  Base.ServerTypes Model.Server Proofs.ServerProofs Proofs.ServerTheorems
  Model.Retry Spec.Lifecycle Spec.ClientSpec Gen.SessionErrors Model.ClientTask Proofs.ClientBase Proofs.C13Proofs Proofs.C10Proofs
  Properties.C01 Properties.C05.

Module Framing.
Import Base.Outcome Base.Frame Gen.Consts Gen.RtuLengths Spec.Framing Model.Buffer Model.Mbap Model.Rtu Model.Reader
  Proofs.BufferProofs Proofs.MbapProofs Proofs.RtuProofs Proofs.ReaderGeneric Proofs.C05Proofs.

(* receive buffer: every cursor operation on a well-formed ReadBuffer returns Ok or Err *)
Theorem C07_buffer_read_no_panic : forall n b, wf b -> snd (buf_read n b) <> Panic.
Proof. exact buf_read_no_panic. Qed.
Print Assumptions C07_buffer_read_no_panic.

Theorem C07_buffer_peek_no_panic : forall idx b, wf b -> snd (buf_peek_at idx b) <> Panic.
Proof. exact buf_peek_no_panic. Qed.
Print Assumptions C07_buffer_peek_no_panic.

Theorem C07_read_some_no_panic : forall b c, wf b -> snd (read_some b c) <> RsPanic.
Proof. exact read_some_no_panic. Qed.
Print Assumptions C07_read_some_no_panic.

(* the two frame parsers, for every buffer content and every parser state *)
Theorem C07_mbap_parse_no_panic : forall st b, wf b -> st_ok st -> snd (mbap_parse st b) <> Panic.
Proof. exact mbap_parse_no_panic. Qed.
Print Assumptions C07_mbap_parse_no_panic.

Theorem C07_rtu_parse_no_panic : forall p st b, wf b -> bytes (b_pend b) -> rst_ok st -> snd (rtu_parse p st b) <> Panic.
Proof. exact rtu_parse_no_panic. Qed.
Print Assumptions C07_rtu_parse_no_panic.

(* the reader loop (FramedReader::next_frame), for every chunk schedule: never panics and never
   spins - with fuel just above the number of bytes still to come it always returns a frame, an
   error, EOF or "waiting for more bytes", i.e. every iteration consumes input (MBAP and RTU) *)
Theorem C07_tcp_reader_no_panic_no_wedge : forall fuel st b n fi, wf b -> st_ok st -> length (concat n) < fuel ->
  snd (next_frame fuel (rd pstate PTcp st b) n fi) <> NfEnd EndPanic /\
  snd (next_frame fuel (rd pstate PTcp st b) n fi) <> NfEnd EndOutOfFuel.
Proof. exact mbap_nf_no_panic. Qed.
Print Assumptions C07_tcp_reader_no_panic_no_wedge.

Theorem C07_rtu_reader_no_panic_no_wedge : forall p fuel st b n fi, wf b -> bytes (b_pend b) -> Forall bytes n -> rst_ok st ->
  length (concat n) < fuel ->
  snd (next_frame fuel (rd rstate (PRtu p) st b) n fi) <> NfEnd EndPanic /\
  snd (next_frame fuel (rd rstate (PRtu p) st b) n fi) <> NfEnd EndOutOfFuel.
Proof. exact rtu_nf_no_panic. Qed.
Print Assumptions C07_rtu_reader_no_panic_no_wedge.

(* = C05_never_full: a parser that wants more bytes always leaves room for at least one (the 1.5.0 shift-bug class) *)
Theorem C07_never_full : forall st b st' b', wf b -> st_ok st -> mbap_parse st b = (st', b', Ok None) ->
  buf_len b' < cap /\
  forall c, c <> [] -> exists k b'', read_some b' c = (b'', RsOk k (skipn k c)) /\ 1 <= k <= length c.
Proof. exact C05.C05_never_full. Qed.
Print Assumptions C07_never_full.

End Framing.

Module ClientCodec.
Import Base.Outcome Base.ClientTypes Model.ClientRequest Proofs.ClientReplyProofs Proofs.ClientCodecProofs.

(* client: handling ANY reply PDU for any well-formed request never panics *)
Theorem C07_client_response_no_panic : forall r pdu, request_wf r -> handle_response r pdu <> Panic.
Proof. exact response_total. Qed.
Print Assumptions C07_client_response_no_panic.

End ClientCodec.

Module ServerSession.
Import Base.Outcome Base.ServerTypes Model.Server Proofs.ServerProofs Proofs.ServerTheorems.

(* = C01_never_fails. Server: for every handler machine, framing, authorization policy, unit map and sequence of
   frames the reader can deliver, the session neither panics nor fails: it stays open *)
Theorem C07_server_session_stays_open : forall (St : Type) (H : handler St) l a units frames, Forall (frame_ok l) frames ->
  snd (session H l a units frames) = SOpen.
Proof. exact @C01.C01_never_fails. Qed.
Print Assumptions C07_server_session_stays_open.

End ServerSession.

Module ClientTaskShutdown.
Import Model.Retry Spec.Lifecycle Spec.ClientSpec Gen.SessionErrors Model.ClientTask Proofs.ClientBase Proofs.C13Proofs Proofs.C10Proofs.
Local Open Scope N_scope.

(* shutdown stays enabled: from every client-task state that listens to its queue a Shutdown
   command (or the last handle dropped) ends the task; states that do not listen end by themselves
   when the in-flight request's timer fires *)
Theorem C07_client_shutdown_enabled : forall cfg s, listens (ph s) = true ->
  (forall q, queue s = CShutdown :: q -> ph (fst (step cfg s EvRecv)) = PDone /\ listens_of (snd (step cfg s EvRecv)) = [LShutdown]) /\
  (queue s = [] -> closed s = true -> ph (fst (step cfg s EvRecv)) = PDone /\ listens_of (snd (step cfg s EvRecv)) = [LShutdown]).
Proof. exact c13_terminates. Qed.
Print Assumptions C07_client_shutdown_enabled.

Theorem C07_client_in_flight_ends : forall cfg s r tx d, ph s = PInFlight r tx d -> fire cfg d <= now s ->
  let s2 := fst (step cfg s EvTimer) in listens (ph s2) = true \/ ph s2 = PDone.
Proof. exact c13_in_flight_ends. Qed.
Print Assumptions C07_client_in_flight_ends.

(* a request whose transmission is parked (a peer that does not read) does not wedge the task either:
   at the bound of the write (write start + request timeout) it has either been transmitted, or it is
   completed (with the I/O error) - whatever the transport does, with no release needed (finding F14) *)
Theorem C07_client_parked_write_ends : forall cfg s r tx u, ph s = PWriting r tx u ->
  let s1 := fst (step cfg s (EvTick (fire cfg (wdl s) - now s))) in
  (exists d, ph (fst (step cfg s1 EvTimer)) = PInFlight r tx d) \/ In (rq_id r) (completed (snd (step cfg s1 EvTimer))).
Proof. exact writing_not_stuck. Qed.
Print Assumptions C07_client_parked_write_ends.
End ClientTaskShutdown.
