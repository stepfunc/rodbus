(* C04 / C05 / C11 end to end for a SEQUENCE of requests on one connection (TCP / TLS).
   ONE production reader serves the connection (whatever it holds of an incomplete frame when an
   exchange ends stays in its buffer: the tcp_represents / C05_continue theorems); in exchange k the task
   has request k in flight under transaction id t_k and hands the first matching frame to
   Request::handle_response.  Reference (Spec/SystemClientSessionSpec.v): request k is decided by
   the FIRST frame with id t_k that the MBAP length fields complete after it was written - the
   connection's bytes are cut as ONE stream, the incomplete frame at the end of exchange k being
   continued by the bytes of exchange k+1 -; frames with other ids, among them the late remainder of
   a reply to a timed-out request, are skipped; a framing error ends the connection.
   `exchange_ok`: the task state of the exchange has a request in flight (ANY such state), the
   request is one the API constructs, chunks are non-empty.  Transaction ids: by C11_txid request k
   of a run is stamped k mod 65536 (C11_system_encode, C11_wire_is_stamped).
   Statements with short proofs from the lemmas of Proofs/, each followed by Print Assumptions. *)
From Coq Require Import NArith List.
From Rodbus Require Base.Frame Base.ClientTypes Model.ClientTask Spec.Framing Spec.SystemClientSpec Spec.SystemClientSessionSpec Model.SystemClient Model.SystemClientSession Proofs.C05Proofs Proofs.ClientSessionSystemProofs Properties.C11_System.
Import ListNotations.
Module F := Rodbus.Base.Frame.
Module CT := Rodbus.Base.ClientTypes.
Module T := Rodbus.Model.ClientTask.
Module SS := Rodbus.Spec.SystemClientSpec.
Module XS := Rodbus.Spec.SystemClientSessionSpec.
Import SystemClient SystemClientSession ClientSessionSystemProofs.

(* one exchange from a reader that holds the leftover `left` of everything received so far: the
   verdict is the Spec's on left ++ new bytes, the reader run ends as the Spec's cut ends, and if the
   stream merely falls silent the reader afterwards holds the Spec's new leftover *)
Theorem C04_exchange_continued : forall cfg reqs rd left st r t d chunks fi,
  C05Proofs.tcp_represents rd left ->
  T.ph st = T.PInFlight r t d -> T.partial st = None -> CT.request_wf (reqs (T.rq_id r)) ->
  Forall (fun c => c <> []) chunks ->
  let '(rd1, e, res) := exchange_from cfg reqs rd st chunks fi in
  verdict_for (T.rq_id r) res = SS.ref_client_result (reqs (T.rq_id r)) t (left ++ concat chunks) fi /\
  e = snd (Framing.ref_frames (left ++ concat chunks) fi) /\
  (fi = F.FinPending -> e = F.EndPending -> C05Proofs.tcp_represents rd1 (Framing.mbap_tail (left ++ concat chunks))).
Proof. exact exchange_from_ref. Qed.
Print Assumptions C04_exchange_continued.

(* EVERY sequence of exchanges, every cut of every exchange's bytes into non-empty reads *)
Theorem C04_session : forall cfg reqs xs rd left, C05Proofs.tcp_represents rd left -> Forall (exchange_ok reqs) xs ->
  session_from cfg reqs rd xs = XS.ref_session left (map (spec_exchange reqs) xs).
Proof. exact session_from_ref. Qed.
Print Assumptions C04_session.

(* from the start of a connection (ClientLoop::run resets the reader) *)
Theorem C04_session_from_connect : forall cfg reqs xs, Forall (exchange_ok reqs) xs ->
  client_session cfg reqs xs = XS.ref_session [] (map (spec_exchange reqs) xs).
Proof. intros cfg reqs xs H. unfold client_session. apply session_from_ref; [exact C05Proofs.tcp_represents_fresh|exact H]. Qed.
Print Assumptions C04_session_from_connect.

(* readings of the Spec: at a frame boundary nothing is carried over ... *)
Theorem C04_session_frame_boundary : forall left fs r t rest, Framing.framed left fs ->
  XS.ref_session left ((r, t, []) :: rest) = SS.ref_client_result r t left F.FinPending :: XS.ref_session [] rest.
Proof.
  intros left fs r t rest Hfr. cbn [XS.ref_session]. rewrite app_nil_r. f_equal.
  rewrite (C05Proofs.ref_frames_framed left fs F.FinPending Hfr). cbn [snd Framing.end_of].
  rewrite (C05Proofs.mbap_tail_framed left fs Hfr). reflexivity.
Qed.
Print Assumptions C04_session_frame_boundary.

(* ... and the late remainder of a reply to a timed-out request is consumed as the rest of THAT frame:
   it completes a frame with the OLD transaction id, which the next request skips *)
Theorem C11_late_remainder_skipped : forall r t left rest_of_frame fs s,
  Framing.framed (left ++ rest_of_frame) fs -> Forall (fun f => SS.tx_is t f = false) fs ->
  SS.ref_client_result r t (left ++ rest_of_frame ++ s) F.FinPending = SS.ref_client_result r t s F.FinPending.
Proof. intros r t left rest_of_frame fs s Hfr Hno. rewrite app_assoc. exact (C11_System.C11_system_other_tx_skipped r t _ fs s F.FinPending Hfr Hno). Qed.
Print Assumptions C11_late_remainder_skipped.

(* non-vacuity: request 0 (tx 0) receives 9 of the 11 bytes of its reply and times out; request 1
   (tx 1) then receives the remaining 2 bytes followed by its own reply, in odd chunks *)
Example C04_session_nonvacuous :
  let cfg := {| T.cfg_cap := 4; T.cfg_res := 1 |} in
  let st k := T.set_ph (T.init 1 None 5 9) (T.PInFlight {| T.rq_id := k; T.rq_kind := T.KRead; T.rq_timeout := 1000 |} (N.of_nat k) 1000) in
  client_session cfg (fun _ => CT.RReadHoldingRegisters (16, 1)%N)
    [(st 0%nat, 0%nat, [[0;0;0;0;0;5]; [1;3;2]]%N); (st 1%nat, 1%nat, [[171]; [205;0;1;0]; [0;0;5;1;3;2;190;239]]%N)]
  = [SS.VPending; SS.VValue (CT.RespRegisters [(16, 48879)]%N)].
Proof. vm_compute. reflexivity. Qed.
