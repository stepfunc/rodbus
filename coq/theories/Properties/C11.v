(* C11 - Replies are matched to requests by transaction id; no cross-talk.
   Statements, each followed by Print Assumptions; the proofs are a few lines from Proofs/C11Proofs.v and C11Alt.v
   (C11_no_crosstalk from C10Proofs.step_class, C11_rtu_first_frame_decides from C12Proofs.frame_completes).
   The model is Model/ClientTask.v with TCP/TLS framing: every frame carries a transaction id.  On RTU there is none
   and the statements up to C11_no_crosstalk do not apply; what holds there instead is the last section (C11_rtu_first_frame_decides and the three after it).
   `cfg` (queue capacity, timer resolution) and the initial parameters are arbitrary; `es` ranges over ALL event lists. *)
From Coq Require Import NArith List.
From Rodbus Require Import Spec.Lifecycle Spec.ClientSpec Gen.SessionErrors Model.ClientTask Proofs.ClientBase Proofs.C11Proofs Proofs.C10Proofs Proofs.C11Alt Proofs.C12Proofs.
Import ListNotations.
Local Open Scope N_scope.

(* at most one request outstanding: while a request is in flight no step writes another one ... *)
Theorem C11_one_outstanding : forall cfg s e r tx d,
  ph s = PInFlight r tx d -> wire_ids (snd (step cfg s e)) = [].
Proof. intros cfg s e r tx d. exact (wire_law_none _ _ _ r tx d (step_wire cfg s e)). Qed.
Print Assumptions C11_one_outstanding.

(* ... a step writes at most one request, and the written request is then the one in flight ... *)
Theorem C11_one_write_per_step : forall cfg s e,
  (length (wire_ids (snd (step cfg s e))) <= 1)%nat /\
  (forall id, In id (wire_ids (snd (step cfg s e))) ->
     exists r tx d, ph (fst (step cfg s e)) = PInFlight r tx d /\ rq_id r = id).
Proof.
  intros cfg s e. pose proof (fun id => wire_law_written _ _ _ id (step_wire cfg s e)) as H. split.
  - destruct (wire_ids (snd (step cfg s e))) as [|id l] eqn:E; [repeat constructor|]. destruct (H id (or_introl eq_refl)) as [El _].
    inversion El. repeat constructor.
  - intros id Hin. destruct (H id Hin) as (_ & r & tx & Hp & Hi). eauto.
Qed.
Print Assumptions C11_one_write_per_step.

(* ... and the in-flight request stays in flight until the step that completes it *)
Theorem C11_in_flight_until_completed : forall cfg s e r tx d, ph s = PInFlight r tx d ->
  let '(s', o) := step cfg s e in ph s' = PInFlight r tx d \/ In (rq_id r) (completed o).
Proof.
  intros cfg s e r tx d Eph.
  apply (let_pair (step cfg s e) (fun s' o => ph s' = PInFlight r tx d \/ In (rq_id r) (completed o))), inflight_progress, Eph.
Qed.
Print Assumptions C11_in_flight_until_completed.

(* run level: in the output of ANY run (distinct request ids) writes and completions alternate - a
   request is written only after the previously written one has completed (`scan` returns None as
   soon as a second OWire occurs while the id of an earlier OWire has not been completed) *)
Theorem C11_alternates : forall cfg hn mt rmin rmax es,
  NoDup (all_accepted cfg (init hn mt rmin rmax) es) ->
  scan None (snd (run cfg (init hn mt rmin rmax) es)) <> None.
Proof.
  intros cfg hn mt rmin rmax es H. destruct (run_scan cfg es (init hn mt rmin rmax) (init_done_empty hn mt rmin rmax) H) as [c Hc].
  change (wired (ph (init hn mt rmin rmax))) with (@None nat) in Hc. rewrite Hc. discriminate.
Qed.
Print Assumptions C11_alternates.

(* what is on the wire is what was stamped: in ANY run every written request (OWire tx id) was given
   exactly that transaction id by tx_id.next() (OStamp tx id) - immediately, or when its slow write
   began - so C11_txid / C11_system_encode speak about the wire *)
Theorem C11_wire_is_stamped : forall cfg hn mt rmin rmax es tx id,
  In (OWire tx id) (snd (run cfg (init hn mt rmin rmax) es)) -> In (OStamp tx id) (snd (run cfg (init hn mt rmin rmax) es)).
Proof.
  intros cfg hn mt rmin rmax es. apply (run_wire_stamped cfg es (init hn mt rmin rmax) []); [intros r t u H; discriminate H|intros t i []].
Qed.
Print Assumptions C11_wire_is_stamped.

(* requests are transmitted in submission order: the ids on the wire are a subsequence (order
   preserved) of the ids in the order of the Submit events *)
Theorem C11_fifo : forall cfg mt hn rmin rmax es,
  Subseq (wire_ids (snd (run cfg (init hn mt rmin rmax) es))) (submitted es).
Proof.
  intros cfg mt hn rmin rmax es. pose proof (run_fifo cfg es (init hn mt rmin rmax) [] [] (sub_nil _)) as H.
  destruct (run cfg _ es) as [s' o]. cbn [app snd] in *.
  eapply subseq_trans; [|exact H]. rewrite <- (app_nil_r (wire_ids o)) at 1. apply subseq_app_head. constructor.
Qed.
Print Assumptions C11_fifo.

(* the k-th request taken from the queue while connected (k = 0, 1, ...; OStamp is emitted by
   every tx_id.next() of run_one_request, whether or not the request then reaches the wire) is
   stamped k mod 65536 - for every k, so also beyond 65536 requests *)
Theorem C11_txid : forall cfg mt hn rmin rmax es k t,
  nth_error (stamps (snd (run cfg (init hn mt rmin rmax) es))) k = Some t -> t = txid_spec (N.of_nat k).
Proof. exact c11_txid. Qed.
Print Assumptions C11_txid.

(* TxId::next itself: n calls from 0 leave the counter at n mod 65536, for every n : N *)
Theorem C11_txid_next_n : forall n : N, N.iter n (fun v => fst (txid_next v)) 0 = txid_spec n.
Proof. exact txid_iter. Qed.
Print Assumptions C11_txid_next_n.

(* consecutive requests never share a transaction id *)
Theorem C11_distinct : forall cfg mt hn rmin rmax es k a b,
  let st := stamps (snd (run cfg (init hn mt rmin rmax) es)) in
  nth_error st k = Some a -> nth_error st (S k) = Some b -> a <> b.
Proof. exact c11_distinct. Qed.
Print Assumptions C11_distinct.

(* a frame whose transaction id differs from the outstanding one changes nothing: no output at all
   (in particular no completion), the request stays in flight with the same deadline *)
Theorem C11_mismatch : forall cfg s r t d tx k, ph s = PInFlight r t d -> tx <> t ->
  (partial s = None -> step cfg s (EvFrame tx k) = (s, [])) /\
  (partial s = Some (tx, k) -> step cfg s EvTail = (set_partial s None, [])).
Proof. exact c11_mismatch. Qed.
Print Assumptions C11_mismatch.

(* frames arriving while no request is outstanding are dropped *)
Theorem C11_idle_drop : forall cfg s tx k, ph s = PIdle ->
  step cfg s (EvFrame tx k) = (s, []) /\
  (forall p, partial s = Some p -> step cfg s EvTail = (set_partial s None, [])).
Proof.
  intros cfg s tx k Eph. split.
  - cbn [step]. rewrite Eph. cbn [reading]. destruct (partial s); [reflexivity|]. unfold on_frame. rewrite Eph. reflexivity.
  - intros [t k'] Hp. cbn [step]. rewrite Eph, Hp. cbn [reading]. unfold on_frame. cbn [ph set_partial]. rewrite Eph. reflexivity.
Qed.
Print Assumptions C11_idle_drop.

(* no cross-talk: a reply result (success, exception, bad reply) is only ever produced by the frame
   that carries the outstanding transaction id, and only for the outstanding request; a stale,
   duplicate, future or unsolicited frame never becomes the result of any request *)
Theorem C11_no_crosstalk : forall cfg s e id res, In (OComplete id res) (snd (step cfg s e)) ->
  res = ROk \/ res = RErr ReException \/ res = RErr ReBadResponse ->
  exists r tx d k, ph s = PInFlight r tx d /\ rq_id r = id /\ res = respond k /\
    ((e = EvFrame tx k /\ partial s = None) \/ (e = EvTail /\ partial s = Some (tx, k))).
Proof. intros cfg s e id res H Hr. apply step_class in H. destruct Hr as [-> | [-> | ->]]; exact H. Qed.
Print Assumptions C11_no_crosstalk.

(* serial (RTU) framing: no transaction id.
   The statements above are about TCP / TLS, as the property text says ("stamps each TCP/TLS
   request with a 16-bit transaction id").  On a serial line frames carry no id: `rtu_step` is the
   same task with frame.header.tx_id = None.  What the code does there, as theorems about the model:
   the FIRST frame delivered while a request is outstanding decides it (whatever it is a reply to) ... *)
Theorem C11_rtu_first_frame_decides : forall cfg s r t d tx k, ph s = PInFlight r t d -> partial s = None ->
  exists o, snd (rtu_step cfg s (EvFrame tx k)) = OComplete (rq_id r) (respond k) :: o /\ respond k <> RErr ReResponseTimeout.
Proof. intros cfg s r t d tx k Hp Hn. cbn [rtu_step]. unfold cur_tx. rewrite Hp. exact (frame_completes cfg s r t d k Hp Hn). Qed.
Print Assumptions C11_rtu_first_frame_decides.

(* ... also a frame whose first part arrived earlier, e.g. while the previous (timed-out) request was
   outstanding: it completes the request that is outstanding when its last byte arrives ... *)
Theorem C11_rtu_tail_decides : forall cfg s r t d tx k, ph s = PInFlight r t d -> partial s = Some (tx, k) ->
  exists o, snd (rtu_step cfg s EvTail) = OComplete (rq_id r) (respond k) :: o.
Proof.
  intros cfg s r t d tx k Hp Hn. cbn [rtu_step]. unfold retag, cur_tx. rewrite Hn, Hp. cbn [step ph set_partial partial]. rewrite Hp.
  cbn [reading]. unfold on_frame. cbn [ph set_partial]. rewrite Hp, N.eqb_refl. apply finish_head.
Qed.
Print Assumptions C11_rtu_tail_decides.

(* ... frames arriving while nothing is outstanding are dropped, and every other event is handled
   exactly as on TCP (so deadline, counter, exactly-once and life-cycle theorems carry over) *)
Theorem C11_rtu_idle_drop : forall cfg s tx k, ph s = PIdle -> rtu_step cfg s (EvFrame tx k) = (s, []).
Proof. intros cfg s tx k Hp. cbn [rtu_step]. apply (proj1 (C11_idle_drop cfg s _ k Hp)). Qed.
Print Assumptions C11_rtu_idle_drop.

Theorem C11_rtu_other_events : forall cfg s e, (forall tx k, e <> EvFrame tx k) -> e <> EvTail -> rtu_step cfg s e = step cfg s e.
Proof. intros cfg s e H1 H2. destruct e; try reflexivity; [exfalso; eapply H1; reflexivity|congruence]. Qed.
Print Assumptions C11_rtu_other_events.

(* the consequence on a serial line: the late reply to a timed-out request is taken as the reply to
   the NEXT request (request 7 times out, its reply arrives when request 8 is outstanding) *)
Example C11_rtu_late_reply_goes_to_the_next_request :
  let cfg := {| cfg_cap := 4; cfg_res := 1 |} in
  let rq i := CReq {| rq_id := i; rq_kind := KRead; rq_timeout := 100 |} in
  let s := fst (run cfg (init 1 None 5 9)
        [EvSubmit CEnable SFuture; EvRecv; EvConnect true; EvSubmit (rq 7%nat) SFuture; EvSubmit (rq 8%nat) SFuture; EvRecv;
         EvTick 100; EvTimer; EvRecv]) in
  snd (rtu_step cfg s (EvFrame 0 RpGenuine)) = [OComplete 8%nat ROk].
Proof. vm_compute. reflexivity. Qed.

(* non-vacuity: a run that crosses a mismatching (stale) frame and then takes the genuine one *)
Example C11_nonvacuous :
  let cfg := {| cfg_cap := 4; cfg_res := 1 |} in
  let rq i := CReq {| rq_id := i; rq_kind := KRead; rq_timeout := 100 |} in
  snd (run cfg (init 1 None 5 9)
        [EvSubmit CEnable SFuture; EvRecv; EvConnect true; EvSubmit (rq 7%nat) SFuture; EvSubmit (rq 8%nat) SFfi; EvRecv;
         EvFrame 65535 RpGenuine; EvFrame 0 RpException; EvRecv; EvFrame 0 RpGenuine; EvFrame 1 RpGenuine])
  = [OListen LConnecting; ODial; OListen LConnected; OStamp 0 7%nat; OWire 0 7%nat; OComplete 7%nat (RErr ReException);
     OStamp 1 8%nat; OWire 1 8%nat; OComplete 8%nat ROk].
Proof. vm_compute. reflexivity. Qed.
