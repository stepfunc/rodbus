(* C19: registering a unit id that is already registered is refused without any effect.
   Only statements, closed by `exact`, each followed by Print Assumptions. *)
From Coq Require Import List String.
From Rodbus Require Import Gen.LockScope Spec.FfiWireSpec Model.FfiWire.
From Rodbus Require Proofs.RegistrationProofs.
Import ListNotations.
Module P := Rodbus.Proofs.RegistrationProofs.

(* In the composed model of a C-ABI server (any application, code model or reference server), a second
   rodbus_device_map_add_endpoint for unit 1 with ANY configure callback returns false and everything that follows -
   every reply, every transaction result, the callback count - is what it would have been without that call: the
   database served stays the FIRST (accepted) registration's. Over the statement order regenerated from
   device_map_add_endpoint (the contains_key check with its early return precedes the configure callback and the insert). *)
Theorem C19_refused_registration_no_effect : forall W model units tx ops rest,
  run_items W model units tx (IDup ops :: rest) =
  (let '(out, u') := run_items W model units tx rest in ("dup=F"%string :: out, u')).
Proof. exact P.refused_registration. Qed.
Print Assumptions C19_refused_registration_no_effect.

Theorem C19_duplicate_unit_refused_first : duplicate_unit_refused_before_any_effect = true.
Proof. exact P.refused_first. Qed.
Print Assumptions C19_duplicate_unit_refused_first.
