(* C04 / C05 / C10 / C13 end to end across RECONNECTS: one channel, several connections, ONE reader
   that ClientLoop::run resets when a connection starts (finding F5; C05_client).
   - a request in flight when the connection dies completes with the error that ended it
     (C04_system_connection_ends: verdict VIo / VBadFrame, session end reported);
   - requests taken during the wait before the next attempt fail at once with NoConnection
     (C13_fail_fast);
   - every connection is decided by ITS OWN bytes alone: whatever the dead connection left in the
     reader - in particular the beginning of a frame it died in - is not part of the next one
     (C04_connections below: the verdicts of connection j are `ref_session_fi []` of its exchanges).
   Statements with short proofs from the lemmas of Proofs/, each followed by Print Assumptions. *)
From Coq Require Import NArith List.
From Rodbus Require Base.Frame Base.ClientTypes Model.Reader Model.ClientTask Spec.SystemClientSpec Spec.SystemClientSessionSpec Model.SystemClient Model.SystemClientSession Proofs.C05Proofs Proofs.ClientSessionSystemProofs.
Import ListNotations.
Module F := Rodbus.Base.Frame.
Module CT := Rodbus.Base.ClientTypes.
Module T := Rodbus.Model.ClientTask.
Module SS := Rodbus.Spec.SystemClientSpec.
Module XS := Rodbus.Spec.SystemClientSessionSpec.
Import SystemClient SystemClientSession ClientSessionSystemProofs.

(* one connection whose exchanges may see the stream end: verdicts = the Spec's, from ANY reader that
   holds the leftover `left`; the reader stays an MBAP reader *)
Theorem C04_connection : forall cfg reqs xs rd left, C05Proofs.tcp_represents rd left -> C05Proofs.is_tcp rd -> Forall (xchg_ok reqs) xs ->
  snd (session_fi cfg reqs rd xs) = XS.ref_session_fi left (map (spec_xchg reqs) xs) /\ C05Proofs.is_tcp (fst (session_fi cfg reqs rd xs)).
Proof. exact session_fi_ref. Qed.
Print Assumptions C04_connection.

(* EVERY sequence of connections, whatever state the reader was left in by the previous one: each
   connection's requests are decided by that connection's bytes alone *)
Theorem C04_connections : forall cfg reqs conns rd, C05Proofs.is_tcp rd -> Forall (Forall (xchg_ok reqs)) conns ->
  connections_from cfg reqs rd conns = XS.ref_connections (map (map (spec_xchg reqs)) conns).
Proof. exact connections_ref. Qed.
Print Assumptions C04_connections.

(* non-vacuity (the F5 scenario at system level): on connection 1 request 0 (tx 0) receives 9 of the 11
   bytes of its reply, then the connection is closed by the peer: Io.  On connection 2 request 1 (tx 1)
   receives a correct, complete reply: it is accepted (a reader that kept the stale 9 bytes would
   reject it with UnknownProtocolId) *)
Example C04_connections_nonvacuous :
  let cfg := {| T.cfg_cap := 4; T.cfg_res := 1 |} in
  let st k := T.set_ph (T.set_enabled (T.init 1 None 5 9) true)
                (T.PInFlight {| T.rq_id := k; T.rq_kind := T.KRead; T.rq_timeout := 1000 |} (N.of_nat k) 1000) in
  connections_from cfg (fun _ => CT.RReadHoldingRegisters (16, 1)%N) (Reader.reader_new Reader.KTcp)
    [[(st 0%nat, 0%nat, [[0;0;0;0;0;5]; [1;3;2]]%N, F.FinEof)];
     [(st 1%nat, 1%nat, [[0;1;0;0;0;5;1;3]; [2;190;239]]%N, F.FinPending)]]
  = [[SS.VIo]; [SS.VValue (CT.RespRegisters [(16, 48879)]%N)]].
Proof. vm_compute. reflexivity. Qed.
