(* C02 - Application handlers see only valid, correctly decoded requests, exactly once.
   Each theorem is followed by Print Assumptions; the lemmas used are in Proofs/.

   log_of (handle_frame ..) is the ordered list of everything the application sees while one frame
   is handled; handler_events drops the authorization queries (C08). spec_calls (Spec/Modbus.v) is
   what the property allows: ONE write call with the decoded arguments for a valid, in-limit,
   permitted write to a configured unit (one per configured unit, in unit id order, for a broadcast
   write); the ascending prefix start .. first failing address for a valid, permitted read of a
   configured unit; nothing for anything else (malformed, over-limit, wrong unit, unknown function,
   denied, empty). A frame the reader never delivers (bad frame) causes no call because
   handle_frame is not reached (C05/C06). *)
From Coq Require Import NArith List String.
From Rodbus Require Import Base.ServerTypes Model.Server Model.ServerRender Model.ServerExec Spec.Modbus
  Proofs.ServerProofs Proofs.ServerProps Proofs.ServerTheorems Proofs.AuthzTies Proofs.ReaderTies.
Import ListNotations.
Local Open Scope N_scope.

Theorem C02_calls_frame : forall (St : Type) (H : handler St) l a units fr, frame_ok l fr ->
  handler_events (log_of (handle_frame H l a units fr)) = spec_calls H a units fr.
Proof. intros St H l a units fr Hok. destruct (handle_frame_of_ref H l a units fr Hok) as (_ & _ & ->). apply ref_calls. Qed.
Print Assumptions C02_calls_frame.

(* sequences: the calls of a connection are the calls of its frames in order, each against the
   handler states its predecessors left (calls_seq threads the reference server's states) *)
Theorem C02_calls : forall (St : Type) (H : handler St) l a units frames, Forall (frame_ok l) frames ->
  handler_events (snd (fst (session H l a units frames))) = calls_seq H l a units frames.
Proof.
  intros St H l a units frames Hok. rewrite session_refines by assumption.
  pose proof (ref_session_calls H l a frames units) as C. unfold log_of in C.
  destruct (ref_session H l a units frames) as [[rs units'] lg]. exact C.
Qed.
Print Assumptions C02_calls.

(* the iterator handed to a write-multiple handler yields exactly `count` items (start + i, v_i),
   v_i the transmitted values *)
Theorem C02_args_coils : forall (St : Type) (H : handler St) a units fr u s n items,
  In (EvWriteMultipleCoils u s n items) (spec_calls H a units fr) ->
  exists fc vs, decode (f_pdu fr) = Valid fc (WriteMultipleCoils s vs) /\ items = indexed s vs /\ N.of_nat (List.length vs) = n.
Proof. intros St H a units fr u s n items Hin. exact (wm_args H a units fr _ Hin). Qed.
Print Assumptions C02_args_coils.

Theorem C02_args_registers : forall (St : Type) (H : handler St) a units fr u s n items,
  In (EvWriteMultipleRegisters u s n items) (spec_calls H a units fr) ->
  exists fc vs, decode (f_pdu fr) = Valid fc (WriteMultipleRegisters s vs) /\ items = indexed s vs /\ N.of_nat (List.length vs) = n.
Proof. intros St H a units fr u s n items Hin. exact (wm_args H a units fr _ Hin). Qed.
Print Assumptions C02_args_registers.

Theorem C02_args_nth : forall (A : Type) (d : A) vs s i, (i < List.length vs)%nat ->
  List.nth i (indexed s vs) (0, d) = (s + N.of_nat i, List.nth i vs d).
Proof. exact @indexed_nth. Qed.
Print Assumptions C02_args_nth.

(* each read queries only addresses inside the requested range, on the handler object the addressed
   unit id maps to *)
Theorem C02_reads_in_range : forall (St : Type) (H : handler St) a units fr e k h addr,
  In e (spec_calls H a units fr) -> ev_read e = Some (k, h, addr) ->
  exists fc r u s n, decode (f_pdu fr) = Valid fc r /\ kind_of r = k /\ f_dest fr = DUnit u /\ lookup u (u_map units) = Some h /\
                     arg_of r = ARange s n /\ (s <= addr /\ addr < s + n).
Proof. exact @reads_in_range. Qed.
Print Assumptions C02_reads_in_range.

(* no call, no change of application state (same unit map, every handler object's state as before) *)
Theorem C02_no_effect : forall (St : Type) (H : handler St) l a units fr, frame_ok l fr ->
  spec_calls H a units fr = [] -> same_units (units_of (handle_frame H l a units fr)) units.
Proof.
  intros St H l a units fr Hok E. destruct (handle_frame_of_ref H l a units fr Hok) as (_ & -> & _). apply ref_no_effect. exact E.
Qed.
Print Assumptions C02_no_effect.

(* (= C01_reader_loop_shape) the handlers see the requests of the STREAM: the receive buffer's compaction moves the pending bytes before it
   rewinds both indices, next_frame keeps the parser state between calls and resets it when a framing error is
   returned (the same reader serves the re-opened RTU port). Regenerated from common/buffer.rs, common/frame.rs. *)
Theorem C02_reader_loop_shape :
  Gen.ReaderLoop.next_frame_resets_parser_on_entry = false /\ Gen.ReaderLoop.next_frame_resets_parser_on_error = true /\
  Gen.ReaderLoop.read_some_compaction =
    ["let length = self.len()"; "self.buffer.copy_within(self.begin..self.end, 0)"; "self.begin = 0"; "self.end = length"]%string.
Proof. exact reader_loop_shape. Qed.
Print Assumptions C02_reader_loop_shape.

(* (= C08_ffi_wrapper_forwards) on servers created through the C ABI the permission asked for is the one of the request's own kind: each
   method of the authorization adapter calls the C callback of its own name (regenerated table) *)
Theorem C02_ffi_wrapper_own_callback :
  Forall forwards_faithfully Gen.FfiTables.authz_wrappers /\
  map Gen.FfiTables.aw_method Gen.FfiTables.authz_wrappers =
    ["read_coils"; "read_discrete_inputs"; "read_holding_registers"; "read_input_registers";
     "write_single_coil"; "write_single_register"; "write_multiple_coils"; "write_multiple_registers"]%string /\
  Gen.FfiTables.authz_wrapper_fields = ["inner"]%string.
Proof. exact ffi_wrapper_forwards. Qed.
Print Assumptions C02_ffi_wrapper_own_callback.

(* non-vacuity: malformed / over-limit / wrong-unit / unknown-function frames cause no call; the
   write is seen once with its decoded items; the read stops at the failing address 2 *)
Example C02_nonvacuous :
  run_model (LTcp, [(1, 1)], [mku 1 3 5 [(0, 2, 4)] [] [] [] [] []], CNone,
             [mkf (Some 1) (DUnit 1) [15; 0; 16; 0; 10; 2; 205; 1]; mkf (Some 2) (DUnit 1) [15; 0; 16; 0; 10; 1; 205];
              mkf (Some 3) (DUnit 1) [1; 0; 0; 7; 209]; mkf (Some 4) (DUnit 2) [5; 0; 1; 255; 0];
              mkf (Some 5) (DUnit 1) [9; 9]; mkf (Some 6) (DUnit 1) [1; 0; 0; 0; 5]])
  = "000100000006010F0010000A,000200000003018F03,000300000003018103,-,000500000003018901,000600000003018104|wmc.1.16.10.16:1011001110;rc.1.0-2|open"%string.
Proof. vm_compute. reflexivity. Qed.
