(* C05 - MBAP framing is segmentation-independent and rejects malformed headers.
   The statements, each followed by Print Assumptions; the proofs are short steps from Proofs/C05Proofs.v,
   MbapProofs.v, ShapeProofs.v and ReaderGeneric.v.
   Model: Model/{Buffer,Mbap,Reader}.v (ReadBuffer indices, MbapParser, FramedReader::next_frame
   over a chunk schedule). Spec: Spec/Framing.v `ref_frames` (cut by the length field only). *)
From Coq Require Import NArith List.
From Rodbus Require Import Base.Outcome Base.Frame Model.Buffer Model.Mbap Model.Reader Spec.Framing
  Gen.ParserShape Gen.ClientFatal Proofs.BufferProofs Proofs.ReaderGeneric Proofs.MbapProofs Proofs.C05Proofs Proofs.ShapeProofs.
Import ListNotations.

(* For EVERY byte stream s and EVERY way of cutting it into network reads (each read hands over
   1 <= k <= min(|chunk|, free buffer space) bytes), with the stream ending in EOF, an I/O error or
   silence: the reader delivers exactly the frames the length fields prescribe and stops with the
   same terminal error at the same point. No bound on sizes, counts or chunk lengths. *)
Theorem C05_chunking : forall (s : list N) (chunks : list (list N)) (fi : fin),
  concat chunks = s -> Forall (fun c => c <> []) chunks ->
  run_session KTcp false chunks fi = (map IFrame (fst (ref_frames s fi)), snd (ref_frames s fi)).
Proof. exact tcp_chunking. Qed.
Print Assumptions C05_chunking.

(* the same without any condition on the schedule: an empty chunk is a 0-byte read, i.e. the stream ends there with EOF *)
Theorem C05_chunking_any_schedule : forall (chunks : list (list N)) (fi : fin),
  run_session KTcp false chunks fi =
  (map IFrame (fst (ref_frames (fst (sched_stream chunks fi)) (snd (sched_stream chunks fi)))),
   snd (ref_frames (fst (sched_stream chunks fi)) (snd (sched_stream chunks fi)))).
Proof. exact tcp_any_schedule. Qed.
Print Assumptions C05_chunking_any_schedule.

Theorem C05_chunking_independent : forall c1 c2 fi,
  concat c1 = concat c2 -> Forall (fun c => c <> []) c1 -> Forall (fun c => c <> []) c2 ->
  run_session KTcp false c1 fi = run_session KTcp false c2 fi.
Proof. intros c1 c2 fi E H1 H2. now rewrite (tcp_chunking (concat c2) c1 fi E H1), (tcp_chunking (concat c2) c2 fi eq_refl H2). Qed.
Print Assumptions C05_chunking_independent.

(* the Spec itself: a stream of complete, well-formed frames is cut into exactly those frames *)
Theorem C05_spec_frames : forall pre fs fi, framed pre fs -> ref_frames pre fi = (fs, end_of fi).
Proof. exact ref_frames_framed. Qed.
Print Assumptions C05_spec_frames.

(* After any number of complete frames, a header with protocol id <> 0, length 0 or length > 254
   ends the run exactly there with a BadFrame error (never an internal error), whatever follows
   it and however the stream is cut; the frames before it are all delivered. The session (server)
   / connection (client) then ends: SessionTask::run and ClientLoop::run return on that error. *)
Theorem C05_reject : forall pre fs h rest chunks fi,
  framed pre fs -> bad_header h -> concat chunks = pre ++ h ++ rest -> Forall (fun c => c <> []) chunks ->
  exists e, e <> InternalError /\ run_session KTcp false chunks fi = (map IFrame fs, EndBad e).
Proof. exact tcp_reject. Qed.
Print Assumptions C05_reject.

(* No byte lost or re-read, step by step: a parse call removes a prefix of the pending bytes and
   nothing else; a read appends a non-empty prefix of what the source offers behind the pending
   bytes and leaves the rest first in line. (C05_chunking is the end-to-end consequence.) *)
Theorem C05_no_loss_parse : forall st b st' b' r, wf b -> st_ok st -> mbap_parse st b = (st', b', r) ->
  exists k, k <= buf_len b /\ b' = consume k b /\ b_pend b = firstn k (b_pend b) ++ b_pend b' /\ wf b' /\ st_ok st'.
Proof. exact tcp_parse_consumes_prefix. Qed.
Print Assumptions C05_no_loss_parse.

Theorem C05_no_loss_read : forall b c, wf b -> buf_len b < cap -> c <> [] ->
  exists k b'', read_some b c = (b'', RsOk k (skipn k c)) /\ 1 <= k <= length c /\
                b_pend b'' ++ skipn k c = b_pend b ++ c /\ wf b''.
Proof. exact read_appends. Qed.
Print Assumptions C05_no_loss_read.

(* ... and over a whole next_frame call, for every chunk schedule: consumed ++ pending ++ undelivered is invariant *)
Theorem C05_no_loss : forall st b n fi r' n' res, wf b -> st_ok st ->
  next_frame (nf_fuel n) {| r_parser := PTcp st; r_buf := b |} n fi = (r', n', res) ->
  match res with
  | NfFrame _ | NfEnd (EndBad _) =>
      exists consumed, b_pend b ++ fst (sched_stream n fi) = consumed ++ b_pend (r_buf r') ++ fst (sched_stream n' fi)
  | _ => True
  end.
Proof.
  intros st b n fi r' n' res Hwf Hst E. rewrite !ReaderGeneric.sched_stream_eq. cbn [fst].
  pose proof (mbap_parser _ nf_cases st b n fi _ Hwf I (all_true n) Hst (le_n _)) as H. unfold rd in H. rewrite E in H.
  inversion H as [b' ? f Hx _|b' ? e Hx _|? ? e Hnb _ _ _]; subst; cbn [r_buf]; [exact (nx_split Hx)..|].
  destruct e; [now destruct (Hnb e)|exact I..].
Qed.
Print Assumptions C05_no_loss.

(* The 1.5.0 buffer-shift bug class: whenever the parser asks for more bytes, fewer than
   `capacity` bytes are pending, so after reset / compaction the next read has room for >= 1 byte. *)
Theorem C05_never_full : forall st b st' b', wf b -> st_ok st -> mbap_parse st b = (st', b', Ok None) ->
  buf_len b' < cap /\
  forall c, c <> [] -> exists k b'', read_some b' c = (b'', RsOk k (skipn k c)) /\ 1 <= k <= length c.
Proof. exact tcp_never_full. Qed.
Print Assumptions C05_never_full.

(* CANCEL-SAFETY. reader.next_frame(..) is one branch of a tokio::select! in SessionTask::run_one,
   ClientLoop::poll and ClientLoop::execute_request; when another branch fires the future is dropped
   while it waits for bytes and a new call starts later from the reader's state. For EVERY reachable
   reader state and EVERY split n1 ++ n2 of a schedule: a call over n1 that is abandoned while waiting,
   followed by a fresh call over n2 from the reader it left behind, returns the same frame / error,
   the same reader and the same rest of the schedule as ONE uninterrupted call over n1 ++ n2. *)
Theorem C05_cancel_safe : forall st b n1 n2 fi r1 n1',
  wf b -> st_ok st ->
  next_frame (nf_fuel n1) {| r_parser := PTcp st; r_buf := b |} n1 FinPending = (r1, n1', NfEnd EndPending) ->
  next_frame (nf_fuel n2) r1 n2 fi = next_frame (nf_fuel (n1 ++ n2)) {| r_parser := PTcp st; r_buf := b |} (n1 ++ n2) fi /\
  n1' = [] /\ exists st1 b1, r1 = {| r_parser := PTcp st1; r_buf := b1 |} /\ wf b1 /\ st_ok st1.
Proof. exact tcp_cancel_safe. Qed.
Print Assumptions C05_cancel_safe.

(* ... and for whole sessions: abandoning the waiting call at EVERY chunk boundary (Model/Reader.run_cancel) changes nothing *)
Theorem C05_cancel_safe_session : forall chunks fi,
  run_cancel (reader_new KTcp) chunks fi = run_session KTcp false chunks fi.
Proof. exact tcp_cancel_safe_session. Qed.
Print Assumptions C05_cancel_safe_session.

(* COMPOSITIONALITY (Spec): the frames of s1 ++ s2 in terms of the frames of s1 alone, as if the stream
   paused after s1: if s1 ends inside (or exactly at the end of) a frame, what follows is read after the
   incomplete last frame `mbap_tail s1`; if s1 already contains a malformed header, s2 is never looked at *)
Theorem C05_spec_app : forall s1 s2 fi,
  ref_frames (s1 ++ s2) fi =
  match ref_frames s1 FinPending with
  | (fs1, EndPending) => (fs1 ++ fst (ref_frames (mbap_tail s1 ++ s2) fi), snd (ref_frames (mbap_tail s1 ++ s2) fi))
  | x => x
  end.
Proof. exact ref_frames_app. Qed.
Print Assumptions C05_spec_app.

(* COMPOSITIONALITY (reader): a connection that goes on. `tcp_represents r t`: the reader r is waiting and
   the future looks to it exactly as it looks to the Spec after the unconsumed bytes t. A fresh reader
   represents []; from a representing reader the run over ANY further schedule is the Spec on t ++ new
   bytes; and when that run ends waiting, the reader it leaves behind represents the Spec's new leftover.
   (Exchange after exchange on one connection: apply _step per exchange, _run for the last one.) *)
Theorem C05_continue_fresh : tcp_represents (reader_new KTcp) [].
Proof. exact tcp_represents_fresh. Qed.
Print Assumptions C05_continue_fresh.
Theorem C05_continue_run : forall r t n fi, tcp_represents r t ->
  run_reader (run_fuel r n) false r n fi =
    (map IFrame (fst (ref_frames (t ++ fst (sched_stream n fi)) (snd (sched_stream n fi)))),
     snd (ref_frames (t ++ fst (sched_stream n fi)) (snd (sched_stream n fi)))).
Proof. intros r t n fi H. rewrite ReaderGeneric.sched_stream_eq. exact (proj1 (tcp_run_represents r t n fi H)). Qed.
Print Assumptions C05_continue_run.
Theorem C05_continue_step : forall r t n r1 l1, tcp_represents r t ->
  run_reader_st (run_fuel r n) r n FinPending = (r1, (l1, EndPending)) ->
  tcp_represents r1 (mbap_tail (t ++ fst (sched_stream n FinPending))) /\
  l1 = map IFrame (fst (ref_frames (t ++ fst (sched_stream n FinPending)) FinPending)) /\
  snd (ref_frames (t ++ fst (sched_stream n FinPending)) FinPending) = EndPending.
Proof. intros r t n r1 l1 H E. rewrite ReaderGeneric.sched_stream_eq. exact (tcp_represents_step r t n r1 l1 H E). Qed.
Print Assumptions C05_continue_step.

(* PARSER SKELETON TIE. Gen/ParserShape.v lists, regenerated from tcp/frame.rs on every run, the reads and
   checks of MbapParser::parse_header and the steps of the two arms of MbapParser::parse IN THE CODE'S ORDER.
   The model's parser is the interpretation of those lists: header = four reads (7 bytes, all before any
   check), then protocol id, then length > MAX_LENGTH_FIELD, then length = 0; a re-ordered or dropped check in
   the code changes the generated list and these statements stop compiling. *)
Theorem C05_header_shape : forall h, length h = 7 -> hdr h = run_hsteps mbap_header_steps h hfields0.
Proof. exact mbap_header_shape. Qed.
Print Assumptions C05_header_shape.
Theorem C05_header_consumes : hsteps_read_bytes mbap_header_steps = Consts.mbap_header_length /\ no_read_after_check mbap_header_steps false = true.
Proof. split; reflexivity. Qed.
Print Assumptions C05_header_consumes.
Theorem C05_parser_shape : forall st b, wf b -> st_ok st ->
  mbap_parse st b =
  (let '(st', b', r) :=
     match st with
     | Header tx u n => run_header_arm mbap_header_arm tx u n (Header tx u n) b []
     | Begin => match run_begin_arm mbap_begin_arm b None with
                | inl res => res
                | inr (tx, u, n, b') => run_header_arm mbap_header_arm tx u n (Header tx u n) b' []
                end
     end in (st', b', lift_s r)).
Proof. intros st b Hwf Hst. rewrite mbap_parse_eq by assumption. now rewrite mbap_parse_shape. Qed.
Print Assumptions C05_parser_shape.

(* THE CLIENT ENDS THE CONNECTION AT A MALFORMED HEADER. Gen/ClientFatal.v lists, regenerated from client/task.rs
   SessionError::from_request_err, for every FrameParseError kind (and Io) whether a request error of that kind also
   ends the client session. Every one does; so after any complete frames a header with protocol id <> 0, length 0 or
   length > 254 makes the reader report BadFrame exactly there AND the client end the connection: nothing behind it
   is interpreted, in flight or idle, whatever follows. *)
Theorem C05_client_framing_errors_fatal : (forall k, frame_error_ends_session k = true) /\ io_error_ends_session = true.
Proof. exact client_framing_errors_fatal. Qed.
Print Assumptions C05_client_framing_errors_fatal.
Theorem C05_client_ends_at_malformed_header : forall pre fs h rest chunks fi,
  framed pre fs -> bad_header h -> concat chunks = pre ++ h ++ rest -> Forall (fun c => c <> []) chunks ->
  exists e, run_session KTcp false chunks fi = (map IFrame fs, EndBad e) /\ client_connection_survives (EndBad e) = false.
Proof.
  intros pre fs h rest chunks fi Hfr Hbad Hs Hne.
  destruct (tcp_reject pre fs h rest chunks fi Hfr Hbad Hs Hne) as (e & Hni & Hrun).
  exists e. split; [exact Hrun|now apply client_never_survives_a_framing_error].
Qed.
Print Assumptions C05_client_ends_at_malformed_header.

(* every error exit of the MBAP parser leaves it in its initial state (no stale-state analogue of the RTU parser's
   ReadFullBody after a too long frame; next_frame's parser.reset() on error is a no-op for MBAP) *)
Theorem C05_error_exit_state : forall st b st' b' e, wf b -> st_ok st -> mbap_parse st b = (st', b', Err e) -> st' = Begin.
Proof. exact mbap_error_leaves_begin. Qed.
Print Assumptions C05_error_exit_state.

(* Client role: ONE reader serves all connections of a channel and ClientLoop::run resets it when
   a connection starts (finding F5). Whatever state an earlier connection left behind, every
   connection's stream is cut on its own. *)
Theorem C05_client : forall conns r, is_tcp r ->
  client_connections true r conns =
  map (fun c => (map IFrame (fst (ref_frames (fst (sched_stream (fst c) (snd c))) (snd (sched_stream (fst c) (snd c))))),
                 snd (ref_frames (fst (sched_stream (fst c) (snd c))) (snd (sched_stream (fst c) (snd c)))))) conns.
Proof.
  intros conns r Hr. rewrite (client_connections_fresh KTcp) by (destruct r as [[|] ?]; [reflexivity|destruct Hr]).
  apply map_ext. intros [n fi]. apply tcp_any_schedule.
Qed.
Print Assumptions C05_client.

(* ... and without that reset (`reset_at_connect = false`) the statement is false: connection 1
   dies after 9 of 11 reply bytes, connection 2 receives a correct reply and rejects it. *)
Theorem C05_client_stale_refuted : exists conns,
  client_connections false (reader_new KTcp) conns <>
  map (fun c => (map IFrame (fst (ref_frames (fst (sched_stream (fst c) (snd c))) (snd (sched_stream (fst c) (snd c))))),
                 snd (ref_frames (fst (sched_stream (fst c) (snd c))) (snd (sched_stream (fst c) (snd c)))))) conns.
Proof.
  exists [([[0;0;0;0;0;5;1;3;2]%N], FinEof); ([[0;1;0;0;0;5;1;3;2;18;52]%N], FinPending)].
  vm_compute. discriminate.
Qed.
Print Assumptions C05_client_stale_refuted.

Example C05_nonvacuous :
  run_session KTcp false [[0;7;0]; [0;0;4;42;1;202]; [254;0;8;0;0;0;1;9]; [0;9]]%N FinEof
  = ([IFrame {| f_tx := Some 7%N; f_dest := 42%N; f_bcast := false; f_pdu := [1;202;254]%N |};
      IFrame {| f_tx := Some 8%N; f_dest := 9%N; f_bcast := false; f_pdu := [] |}], EndIo UnexpectedEof).
Proof. vm_compute. reflexivity. Qed.
Example C05_reject_nonvacuous :
  framed [0;1;0;0;0;2;9;7]%N [{| f_tx := Some 1%N; f_dest := 9%N; f_bcast := false; f_pdu := [7%N] |}] /\ bad_header [0;2;0;5;0;2;9]%N.
Proof.
  split.
  - exact (framed_cons 0 1 0 2 9 [7%N] [] [] eq_refl ltac:(cbn; repeat constructor) framed_nil).
  - exists 0%N, 2%N, 0%N, 5%N, 0%N, 2%N, 9%N. split; [reflexivity|]. left. discriminate.
Qed.
