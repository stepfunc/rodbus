(* C18: the state listeners of the C ABI receive every notification the Rust API listener receives.
   Both facts are read off the regenerated tables of Gen/FfiTables.v. *)
From Coq Require Import List String.
From Rodbus Require Import Gen.FfiTables Spec.FfiSpec.
Import ListNotations.
Local Open Scope string_scope.

(* both adapters of ffi client.rs (ClientStateListener, PortStateListener; regenerated) hold only the C callbacks and
   forward every update unconditionally through the same-named conversion (C18_names): the C listener sees the sequence
   the Rust listener sees, repeated equal states (one Wait per failed attempt to open a serial port) included *)
Theorem C18_listeners_forward_every_update :
  map (fun r => (fst (fst r), listener_adapter_ok r)) listener_adapters = [("ClientStateListener", true); ("PortStateListener", true)].
Proof. reflexivity. Qed.
Print Assumptions C18_listeners_forward_every_update.

(* FfiChannel::enable / disable (regenerated) are nothing but the try_send of the setting, and FfiChannel has no field besides
   the queue sender: a call that returned Ok HAS queued the command, a call that returned TooManyRequests can simply be
   repeated - there is no remembered "enabled" state that could get out of step with the channel task *)
Theorem C18_settings_always_sent : ffi_channel_settings = ffi_settings_spec /\ ffi_channel_fields = ["tx"].
Proof. split; reflexivity. Qed.
Print Assumptions C18_settings_always_sent.
