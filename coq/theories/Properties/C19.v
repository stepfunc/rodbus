(* C19 - The C-ABI point database is a per-type map with atomic transactions.
   Statements closed by `exact` from Proofs/DatabaseProofs.v and Proofs/AtomicProofs.v, each followed by
   Print Assumptions; the lock-scope facts and the examples are evaluated here. *)
From Coq Require Import NArith List String.
From Rodbus Require Import Model.DbTypes Model.Database Spec.MapSpec Spec.AtomicSpec Model.Atomic.
From Rodbus Require Import Gen.LockScope.
From Rodbus Require Proofs.DatabaseProofs Proofs.AtomicProofs Proofs.LockScopeProofs.
Import ListNotations.
Local Open Scope N_scope.

Module DP := Rodbus.Proofs.DatabaseProofs.
Module AP := Rodbus.Proofs.AtomicProofs.

(* For EVERY sequence of add / update / delete / get / client-read operations over the four point
   types, starting from the empty database: the model of ffi/rodbus-ffi/src/database.rs (four
   association lists, Entry::Vacant / Entry::Occupied logic) returns exactly the results of four
   partial functions, and ends in a state that denotes the same four partial functions. *)
Theorem C19_refine : forall ops, Forall DP.op_ok_prop ops ->
  let (d, rs) := Database.run db_empty ops in
  let (s, rs') := spec_run spec_empty ops in
  rs = rs' /\ (forall t i, DP.abs d t i = s t i) /\ DP.wf d.
Proof. exact DP.C19_refine. Qed.
Print Assumptions C19_refine.

Theorem C19_refine_from : forall ops d s, DP.related d s -> Forall DP.op_ok_prop ops ->
  snd (Database.run d ops) = snd (spec_run s ops) /\ DP.related (fst (Database.run d ops)) (fst (spec_run s ops)).
Proof. exact DP.C19_refine_from. Qed.
Print Assumptions C19_refine_from.

(* add succeeds only for absent indices *)
Theorem C19_add_iff : forall d t i v, value_ok t v = true ->
  (snd (exec d (Add t i v)) = RBool true <-> DP.abs d t i = None).
Proof. exact DP.C19_add_iff. Qed.
Print Assumptions C19_add_iff.

Theorem C19_add_effect : forall d t i v, value_ok t v = true -> DP.abs d t i = None ->
  DP.abs (fst (exec d (Add t i v))) t i = Some v /\
  forall t' i', (t', i') <> (t, i) -> DP.abs (fst (exec d (Add t i v))) t' i' = DP.abs d t' i'.
Proof. exact DP.C19_add_effect. Qed.
Print Assumptions C19_add_effect.

(* update and delete only for present ones *)
Theorem C19_update_iff : forall d t i v, value_ok t v = true ->
  (snd (exec d (Update t i v)) = RBool true <-> DP.abs d t i <> None).
Proof. exact DP.C19_update_iff. Qed.
Print Assumptions C19_update_iff.

Theorem C19_update_effect : forall d t i v, value_ok t v = true -> DP.abs d t i <> None ->
  DP.abs (fst (exec d (Update t i v))) t i = Some v /\
  forall t' i', (t', i') <> (t, i) -> DP.abs (fst (exec d (Update t i v))) t' i' = DP.abs d t' i'.
Proof. exact DP.C19_update_effect. Qed.
Print Assumptions C19_update_effect.

Theorem C19_delete_iff : forall d t i, snd (exec d (Delete t i)) = RBool true <-> DP.abs d t i <> None.
Proof. exact DP.C19_delete_iff. Qed.
Print Assumptions C19_delete_iff.

Theorem C19_delete_effect : forall d t i, DP.abs (fst (exec d (Delete t i))) t i = None /\
  forall t' i', (t', i') <> (t, i) -> DP.abs (fst (exec d (Delete t i))) t' i' = DP.abs d t' i'.
Proof. exact DP.C19_delete_effect. Qed.
Print Assumptions C19_delete_effect.

(* a failed operation changes nothing *)
Theorem C19_fail_identical : forall d o, DP.op_ok_prop o -> snd (exec d o) = RBool false -> fst (exec d o) = d.
Proof. exact DP.C19_fail_identical. Qed.
Print Assumptions C19_fail_identical.

(* get fails for absent ones *)
Theorem C19_get_iff : forall d t i, snd (exec d (Get t i)) = RGet None <-> DP.abs d t i = None.
Proof. exact DP.C19_get_iff. Qed.
Print Assumptions C19_get_iff.

(* a client read touching an absent point is answered with exception 02 - and only then *)
Theorem C19_read_absent : forall d t start count,
  (exists k, (k < count)%nat /\ DP.abs d t (start + N.of_nat k) = None) -> snd (exec d (Read t start count)) = RRead (inr 2).
Proof. exact DP.C19_read_absent. Qed.
Print Assumptions C19_read_absent.

Theorem C19_read_exception_iff : forall d t start count e,
  snd (exec d (Read t start count)) = RRead (inr e) <->
  e = 2 /\ exists k, (k < count)%nat /\ DP.abs d t (start + N.of_nat k) = None.
Proof. exact DP.C19_read_exception_iff. Qed.
Print Assumptions C19_read_exception_iff.

Theorem C19_read_values_iff : forall d t start count vs,
  snd (exec d (Read t start count)) = RRead (inl vs) <->
  map Some vs = map (fun k => DP.abs d t (start + N.of_nat k)) (seq 0 count).
Proof. exact DP.C19_read_values_iff. Qed.
Print Assumptions C19_read_values_iff.

Theorem C19_read_unchanged : forall d t start count, fst (exec d (Read t start count)) = d.
Proof. exact DP.C19_read_unchanged. Qed.
Print Assumptions C19_read_unchanged.

(* Threads run jobs under ONE mutex: a transaction applies its writes one by one, a request reads its
   addresses one by one; the scheduler is an ARBITRARY list of thread indices (every interleaving of
   micro-steps, including blocked attempts). For every initial database, job list and schedule: every
   finished request observed the database exactly as it is after a prefix of the complete
   transactions, in commit order - never part of a transaction. *)
Theorem C19_atomic : forall d0 jobs sched j t addrs,
  let w := Atomic.run (init d0 jobs) sched in
  nth_error (threads w) j = Some t -> finished t = true -> tjob t = Req addrs ->
  atomic_obs d0 (committed w) addrs (obs t).
Proof. exact AP.C19_atomic. Qed.
Print Assumptions C19_atomic.

Theorem C19_atomic_committed_are_txns : forall d0 jobs sched ws,
  let w := Atomic.run (init d0 jobs) sched in
  In ws (committed w) ->
  exists j t, nth_error (threads w) j = Some t /\ finished t = true /\ tjob t = Txn ws /\
              nth_error jobs j = Some (Txn ws).
Proof. exact AP.C19_atomic_committed_are_txns. Qed.
Print Assumptions C19_atomic_committed_are_txns.

(* The same statement for the step function selected by the lock scopes the translator reads off the
   code (Gen/LockScope.v: a reply = one `handler.lock()` temporary spanning get_reply in task.rs; a
   transaction = one guard spanning the callback in server_update_database; the wrapper takes no lock). *)
Theorem C19_atomic_code : forall d0 jobs sched j t addrs,
  let w := Rodbus.Proofs.LockScopeProofs.code_run (init d0 jobs) sched in
  nth_error (threads w) j = Some t -> finished t = true -> tjob t = Req addrs ->
  atomic_obs d0 (committed w) addrs (obs t).
Proof.
  unfold Rodbus.Proofs.LockScopeProofs.code_run. rewrite Rodbus.Proofs.LockScopeProofs.code_step_is_step. exact AP.C19_atomic.
Qed.
Print Assumptions C19_atomic_code.

(* The lock scope as read off the sources (Gen/LockScope.v, regenerated on every run):
   - unicast request (server/task.rs handle_frame): the statement `let reply = request.get_reply(header,
     handler.lock().unwrap().as_mut(), &mut self.writer, decode)?;` is ONE critical section of the unit's mutex;
     the FrameWriter is an argument of that call, so EVERY reply byte is computed under the lock: MBAP / RTU
     header, function code, byte count and data (all handler read_* calls) or the write echo (after the one
     write_* call) or the exception code, and the CRC on serial. The statement contains no await (get_reply is
     not async). The socket write (`write_reply(io, reply, ..).await`, F11) is the NEXT statement: it happens
     after the guard is dropped, on bytes that are already final - a slow or stalled peer never holds the lock.
   - the authorization handler is consulted before the lock is taken.
   - C-ABI transaction (ffi server.rs server_update_database): one guard spans the whole callback.
   - broadcast (serial): `for handler in self.handlers.iter_mut() { request.execute(handler.lock()..) }` takes each
     unit's lock separately: a broadcast write is atomic PER UNIT, not across units. With the C ABI every unit has
     its own Database and a request reads exactly one unit, so no single request can observe a half-applied
     broadcast; two requests to two units can (documented, not a property violation). *)
Theorem C19_lock_scope :
  reply_in_one_critical_section = true /\ reply_bytes_formatted_under_lock = true /\
  locked_statement_is_synchronous = true /\ socket_write_after_unlock = true /\
  authorization_before_lock = true /\ transaction_in_one_critical_section = true /\
  wrapper_takes_no_lock = true /\ broadcast_locks_each_unit_separately = true.
Proof. repeat split; reflexivity. Qed.
Print Assumptions C19_lock_scope.

(* The theorem is about the lock scope: with per-point locking (each single point access atomic, the
   job as a whole not) the same statement is REFUTED by a concrete schedule (reader sees [7;1;1]). *)
Theorem C19_atomic_needs_lock : exists d0 jobs sched j t addrs,
  let w := run_pp (init d0 jobs) sched in
  nth_error (threads w) j = Some t /\ finished t = true /\ tjob t = Req addrs /\
  ~ atomic_obs d0 (committed w) addrs (obs t).
Proof. exact AP.C19_atomic_needs_lock. Qed.
Print Assumptions C19_atomic_needs_lock.

Example C19_demo : show_results (snd (Database.run db_empty DP.demo))
  = "T;F;b1;F;T;[b1,b0];E2;T;r65535;-;-;T;F;E2;T;[r12];T;T;[r3];[b1];[]"%string.
Proof. vm_compute. reflexivity. Qed.

Example C19_atomic_example :
  let w := Atomic.run (init [] [Txn [(0,7);(1,7);(2,7)]; Req [0;1;2]; Txn [(0,9);(1,9);(2,9)]])
                      [0;1;0;1;2;0;1;0;0;1;1;1;1;2;2;2;2;2;1;2;2;2;2;2]%nat in
  map (fun t => (finished t, obs t)) (threads w)
  = [(true, []); (true, [Some 7; Some 7; Some 7]); (true, [])].
Proof. vm_compute. reflexivity. Qed.
