(* C18: the TLS configuration passes through the C ABI unchanged.
   Only statements, closed by `exact`, each followed by Print Assumptions. *)
From Coq Require Import List String Bool.
From Rodbus Require Import Gen.FfiTables Spec.FfiSpec Model.FfiTls.
From Rodbus Require Proofs.FfiTlsProofs.
Import ListNotations.
Local Open Scope string_scope.
Module P := Rodbus.Proofs.FfiTlsProofs.

(* For EVERY C-side client configuration (certificate mode, dns_name, allow_server_name_wildcard, password, minimum
   version; valid UTF-8) and whatever the Rust constructors answer (R): rodbus_client_channel_create_tls - the conversion
   regenerated from client.rs - returns the result of the ONE Rust API call the Spec names (full_pki with the name
   verbatim, None only for "*" with the flag set; self_signed; empty password = none; same-named minimum version):
   Ok when it succeeds, else the ParamError named like its TlsError (BadConfig -> BadTlsConfig, the documented renaming). *)
Theorem C18_tls_client_config : forall R c, exists call,
  tls_client_spec (client_in c) = Some call /\ ffi_tls_client_create R c = Some (ffi_result (R call)).
Proof. exact P.tls_client_create_is_rust. Qed.
Print Assumptions C18_tls_client_config.

(* in particular "*" WITHOUT the flag is handed to full_pki as the expected name (which the Rust API refuses with
   InvalidDnsName - the live runs show that); only with the flag is name verification switched off *)
Theorem C18_tls_wildcard_needs_flag : forall R dns wc pw mn,
  ffi_tls_client_create R {| cc_mode := FCM_AuthorityBased; cc_dns_name := dns; cc_wildcard := wc; cc_password := pw; cc_min := mn |}
  = Some (ffi_result (R {| tc_ctor := "full_pki"; tc_name := if wc && String.eqb dns "*" then None else Some dns; tc_files := tls_files;
                           tc_password := opt_of_string pw; tc_min := name_rust_min_tls_version (min_tls_from_ffi mn); tc_mode := None |})).
Proof. exact P.tls_wildcard_needs_flag. Qed.
Print Assumptions C18_tls_wildcard_needs_flag.

(* the same for rodbus_server_create_tls / _with_authz and TlsServerConfig::new (same-named certificate mode) *)
Theorem C18_tls_server_config : forall R c, exists call,
  tls_server_spec (server_in c) = Some call /\ ffi_tls_server_config R c = Some (ffi_result (R call)).
Proof. exact P.tls_server_config_is_rust. Qed.
Print Assumptions C18_tls_server_config.

Theorem C18_tls_result_names :
  ffi_result None = FPE_Ok /\ forall e, param_error_name_ok (name_rust_tls_error e) (name_ffi_param_error (ffi_result (Some e))) = true /\ ffi_result (Some e) <> FPE_Ok.
Proof. exact P.tls_result_same_named. Qed.
Print Assumptions C18_tls_result_names.
