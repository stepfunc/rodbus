(* C01 for servers created through the C ABI (rodbus_server_create_tcp / _tls / _rtu with C callbacks).
   Model/FfiServer.v `ffi_handler W` is the C-ABI request handler - the database reads and the four write callbacks
   with their WriteResult turned into the handler result through the conversion tables regenerated in Gen/FfiTables.v -
   as an INSTANCE of the application interface of the server core. So the C01 refinement applies to it, and the
   reply to a write is the Spec's reply for the exception the callback returned: success -> echo, a standard
   exception -> its protocol code, Unknown -> the raw code, callback not set -> 01.
   Only statements, closed by `exact`, each followed by Print Assumptions. *)
From Coq Require Import NArith List.
From Rodbus Require Import Base.Outcome Base.ServerTypes Model.Server Spec.Modbus Proofs.ServerProofs Proofs.ServerProps
  Gen.FfiTables Spec.FfiServerSpec Model.FfiServerDefs.
From Rodbus Require Model.Database Model.FfiServer Proofs.FfiServerSystemProofs.
Import ListNotations.
Local Open Scope N_scope.
Module P := Rodbus.Proofs.FfiServerSystemProofs.
Notation ffi_handler := FfiServer.ffi_handler.
Notation database := Database.database.
Notation c_write_handler := FfiServer.c_write_handler.

(* every frame, every application (C callbacks over any application state), every unit map and policy: the C-ABI
   server replies exactly as the reference server does over that handler *)
Theorem C01_ffi_server_frame : forall (A : Type) (W : c_write_handler A) l a (units : ucfg (database * A)) fr, frame_ok l fr ->
  handle_frame (ffi_handler W) l a units fr = lift3 (ref_handle_frame (ffi_handler W) l a units fr).
Proof. exact (fun A W => @handle_frame_refines _ (ffi_handler W)). Qed.
Print Assumptions C01_ffi_server_frame.

(* the reply to a permitted, well-formed write to a served unit, spelled out over the C enum *)
Theorem C01_ffi_write_reply : forall (A : Type) (W : c_write_handler A) l a (units : ucfg (database * A)) fr u h d app fc r,
  frame_ok l fr -> f_dest fr = DUnit u -> lookup u (u_map units) = Some h -> u_store units h = (d, app) ->
  decode (f_pdu fr) = Valid fc r -> is_write r = true -> fst (authorize a u r) = true ->
  reply_of (handle_frame (ffi_handler W) l a units fr) =
    Ok (adu l (f_tx fr) u
          match callback_outcome W app d r with
          | None => exception_pdu fc 1
          | Some (_, _, (true, _, _)) => fc :: write_echo r
          | Some (_, _, (false, FME_Unknown, raw)) => exception_pdu fc raw
          | Some (_, _, (false, e, _)) => exception_pdu fc (ffi_modbus_exception_value e)
          end).
Proof. exact P.system_write_reply_cases. Qed.
Print Assumptions C01_ffi_write_reply.
