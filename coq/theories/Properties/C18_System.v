(* C18 at system level: what a client receives on the wire for a write handled by an application's C callback.

   Same composition as Properties/C19_System.v: ffi_handler W is the RequestHandlerWrapper of
   ffi/rodbus-ffi/src/server.rs as an instance of the server core's `handler`; the application's four write
   callbacks W are ARBITRARY functions of (application state, database, arguments) returning (application state,
   database, WriteResult), or NULL. `callback_outcome W app d r` is what the callback reached by request r did;
   `write_pdu` (Spec/FfiServerSpec.v over Spec/FfiSpec.write_result_spec) is the response PDU the property
   prescribes: echo on success, the standard code of the named exception, the raw code for Unknown, exception 01
   when no callback is registered. Corollaries of the refinement lemmas behind C01 (frame, session, byte stream) and of C18_write_result.
   Only statements, closed by `exact`, each followed by Print Assumptions. *)
From Coq Require Import NArith List String Bool.
From Rodbus Require Import Base.Outcome Base.ServerTypes Model.Server Spec.Modbus Proofs.ServerProofs Proofs.ServerProps
  Gen.FfiTables Spec.FfiServerSpec Model.FfiServerDefs.
From Rodbus Require Model.Database Model.FfiServer Proofs.FfiServerSystemProofs Model.SystemServer.
Import ListNotations.
Local Open Scope N_scope.

Module P := Rodbus.Proofs.FfiServerSystemProofs.
Notation ffi_handler := FfiServer.ffi_handler.
Notation database := Database.database.
Notation c_write_handler := FfiServer.c_write_handler.

(* ONE FRAME, any link, any application, any unit map, any authorization: a permitted, well-formed write (any of
   the four write functions) to a served unit is answered with one ADU whose PDU is write_pdu of the callback's
   WriteResult, and the unit continues with the application state and database the callback left - whatever it
   answered. *)
Theorem C18_system_write_frame : forall (A : Type) (W : c_write_handler A) l a (units : ucfg (database * A)) fr u h d app fc r,
  frame_ok l fr -> f_dest fr = DUnit u -> lookup u (u_map units) = Some h -> u_store units h = (d, app) ->
  decode (f_pdu fr) = Valid fc r -> is_write r = true -> fst (authorize a u r) = true ->
  let cb := callback_outcome W app d r in
  let x := handle_frame (ffi_handler W) l a units fr in
  reply_of x = Ok (adu l (f_tx fr) u (write_pdu fc r (option_map client_view cb))) /\
  u_map (units_of x) = u_map units /\ u_store (units_of x) h = state_after d app cb /\
  forall k, k <> h -> u_store (units_of x) k = u_store units k.
Proof. exact P.system_write_frame. Qed.
Print Assumptions C18_system_write_frame.

(* the same reply spelled out over the C enum: success -> echo of the request; a standard exception -> its
   protocol code; Unknown -> the raw code, whatever it is; callback not set -> 01 *)
Theorem C18_system_write_reply_cases : forall (A : Type) (W : c_write_handler A) l a (units : ucfg (database * A)) fr u h d app fc r,
  frame_ok l fr -> f_dest fr = DUnit u -> lookup u (u_map units) = Some h -> u_store units h = (d, app) ->
  decode (f_pdu fr) = Valid fc r -> is_write r = true -> fst (authorize a u r) = true ->
  reply_of (handle_frame (ffi_handler W) l a units fr) =
    Ok (adu l (f_tx fr) u
          match callback_outcome W app d r with
          | None => exception_pdu fc 1
          | Some (_, _, (true, _, _)) => fc :: write_echo r
          | Some (_, _, (false, FME_Unknown, raw)) => exception_pdu fc raw
          | Some (_, _, (false, e, _)) => exception_pdu fc (ffi_modbus_exception_value e)
          end).
Proof. exact P.system_write_reply_cases. Qed.
Print Assumptions C18_system_write_reply_cases.

(* A CONNECTION: the k-th frame being such a write: the k-th reply is the answer for what the callback returned
   when run on the state the unit holds at that point, and the next frame finds what the callback left. *)
Theorem C18_system_write_session : forall (A : Type) (W : c_write_handler A) l a (units : ucfg (database * A)) frames k fr u h d app fc r,
  Forall (frame_ok l) frames -> nth_error frames k = Some fr ->
  f_dest fr = DUnit u -> lookup u (u_map (units_before (ffi_handler W) l a units frames k)) = Some h ->
  u_store (units_before (ffi_handler W) l a units frames k) h = (d, app) ->
  decode (f_pdu fr) = Valid fc r -> is_write r = true -> fst (authorize a u r) = true ->
  let cb := callback_outcome W app d r in
  nth_error (replies_of (session (ffi_handler W) l a units frames)) k
    = Some (adu l (f_tx fr) u (write_pdu fc r (option_map client_view cb))) /\
  u_map (units_before (ffi_handler W) l a units frames (S k)) = u_map (units_before (ffi_handler W) l a units frames k) /\
  u_store (units_before (ffi_handler W) l a units frames (S k)) h = state_after d app cb /\
  forall j, j <> h -> u_store (units_before (ffi_handler W) l a units frames (S k)) j = u_store (units_before (ffi_handler W) l a units frames k) j.
Proof. exact P.system_write_session. Qed.
Print Assumptions C18_system_write_session.

(* THE SERVER AS A WHOLE, byte level (any stream, any chunking; frames = the reference cut of the stream) *)
Theorem C18_system_write : forall (A : Type) (W : c_write_handler A) l a (units : ucfg (database * A)) bs chunks fi k fr u h d app fc r,
  Forall (fun b => b < 256) bs -> List.concat chunks = bs -> Forall (fun c => c <> []) chunks ->
  let frames := P.cut_frames l bs fi in
  nth_error frames k = Some fr ->
  f_dest fr = DUnit u -> lookup u (u_map (units_before (ffi_handler W) l a units frames k)) = Some h ->
  u_store (units_before (ffi_handler W) l a units frames k) h = (d, app) ->
  decode (f_pdu fr) = Valid fc r -> is_write r = true -> fst (authorize a u r) = true ->
  let cb := callback_outcome W app d r in
  nth_error (replies_of (fst (SystemServer.server_system (ffi_handler W) l a units chunks fi))) k
    = Some (adu l (f_tx fr) u (write_pdu fc r (option_map client_view cb))) /\
  u_map (units_before (ffi_handler W) l a units frames (S k)) = u_map (units_before (ffi_handler W) l a units frames k) /\
  u_store (units_before (ffi_handler W) l a units frames (S k)) h = state_after d app cb /\
  forall j, j <> h -> u_store (units_before (ffi_handler W) l a units frames (S k)) j = u_store (units_before (ffi_handler W) l a units frames k) j.
Proof. exact P.system_write_stream. Qed.
Print Assumptions C18_system_write.

(* Broadcast (serial), inherited from C17 (C17_broadcast_write + C17_broadcast_once): never answered; on a C-ABI device
   map (one handler object per unit id, `device_map ids store` with distinct ids) a valid broadcast write runs, in
   unit id order, every unit's callback exactly once on that unit's own application state and database, which become
   what it left; every WriteResult is dropped; nothing else changes. (The core's ServerHandlerMap would allow two unit
   ids to share one handler object - C17_broadcast_shared_twice - the C ABI cannot build such a map.) *)
Theorem C18_system_broadcast_never_answered : forall (A : Type) (W : c_write_handler A) l a (units : ucfg (database * A)) fr, frame_ok l fr ->
  f_dest fr = DBroadcast -> reply_of (handle_frame (ffi_handler W) l a units fr) = Ok [].
Proof. exact P.ffi_broadcast_never_answered. Qed.
Print Assumptions C18_system_broadcast_never_answered.

Theorem C18_system_broadcast_write : forall (A : Type) (W : c_write_handler A) l ids (store : N -> database * A) fr fc r, frame_ok l fr ->
  NoDup ids -> f_dest fr = DBroadcast -> decode (f_pdu fr) = Valid fc r -> is_write r = true ->
  let x := handle_frame (ffi_handler W) l NoAuth (device_map ids store) fr in
  reply_of x = Ok [] /\
  log_of x = flat_map (fun u => write_call u r) ids /\
  u_map (units_of x) = map (fun u => (u, u)) ids /\
  forall h d app, store h = (d, app) ->
    u_store (units_of x) h = if in_dec N.eq_dec h ids then state_after d app (callback_outcome W app d r) else (d, app).
Proof. exact P.ffi_broadcast_write. Qed.
Print Assumptions C18_system_broadcast_write.

(* The session's command channel, inherited from Properties/C01_Commands.v for the C-ABI handler: decode-level
   changes (rodbus_server_set_decode_level) at any positions change no reply byte, no callback invocation and no
   database; Shutdown / a closed command channel (rodbus_server_destroy) end the session; a write whose reply is
   still being written when the session is told to end HAS run its callback (the database and application state are
   those the callback left) although the client never sees the reply. *)
From Rodbus Require Import Base.ServerRun Model.ServerRun Proofs.ServerRunProofs.

Theorem C18_system_commands_unobservable : forall (A : Type) (W : c_write_handler A) l a (units : ucfg (database * A)) d d' evs,
  observable (session_run (ffi_handler W) l a units d evs) = observable (session_run (ffi_handler W) l a units d' (strip evs)).
Proof. intros. apply unobservable. Qed.
Print Assumptions C18_system_commands_unobservable.

Theorem C18_system_shutdown_ends : forall (A : Type) (W : c_write_handler A) l a (units : ucfg (database * A)) d pre ev post, ends ev ->
  session_run (ffi_handler W) l a units d (pre ++ ev :: post) = close (session_run (ffi_handler W) l a units d pre).
Proof. intros * Hev. apply run_shutdown_ends, Hev. Qed.
Print Assumptions C18_system_shutdown_ends.

Theorem C18_system_write_cut : forall (A : Type) (W : c_write_handler A) l a (units : ucfg (database * A)) d f b bs units' lg levels ev post,
  handle_frame (ffi_handler W) l a units f = (Ok (b :: bs), units', lg) -> ends ev ->
  session_run (ffi_handler W) l a units d (EFrame f :: changes levels ++ ev :: post) = ([], units', lg, last levels d, RShutdown).
Proof. intros *. apply run_write_cut. Qed.
Print Assumptions C18_system_write_cut.

(* AuthorizationHandlerWrapper is ONE object per server, shared by all its sessions. Regenerated from ffi server.rs: it
   holds nothing but the C callbacks (no field in which the role of one session could survive into another;
   a `role: OnceLock<CString>` field would be one), and each of its eight methods builds the role string from the role
   parameter of the very call, calls the same-named callback with the unit id and the range / index, and denies when the
   callback is not set. *)
Theorem C18_authz_wrapper :
  authz_wrapper_fields = ["inner"]%string /\
  map aw_method authz_wrappers = ["read_coils"; "read_discrete_inputs"; "read_holding_registers"; "read_input_registers";
                                  "write_single_coil"; "write_single_register"; "write_multiple_coils"; "write_multiple_registers"]%string /\
  forallb (fun w => String.eqb (aw_callback w) (aw_method w) && match aw_role w with RoleOfThisCall => true | _ => false end
                    && String.eqb (aw_unit w) "unit_id.value" && (String.eqb (aw_arg w) "range.into()" || String.eqb (aw_arg w) "idx")
                    && aw_result_into w && aw_unset_denies w) authz_wrappers = true.
Proof. exact P.authz_wrapper_shape. Qed.
Print Assumptions C18_authz_wrapper.

(* As a policy of the server core (FfiServer.ffi_policy, interpreting those rows): in a session whose TLS handshake
   established role r - `AuthHandler pol r` is how the core carries it (C09_auth_role_is_handshake_role, Front_role) -
   EVERY authorization query shows the C callback of the request's kind exactly (the frame's unit id, the request's range
   or index, r), and the decision is the callback's answer (Deny when it is not set). With C08 (deny before anything
   else) this is the whole path from certificate role to the application's decision. *)
Theorem C18_system_authz_role : forall (C : FfiServer.c_authz_handler) r u req,
  authorize (AuthHandler (FfiServer.ffi_policy C) r) u req =
    (match C (kind_of req) with Some f => f u (arg_of req) r | None => false end,
     [EvAuth (kind_of req) u (arg_of req) r]).
Proof. exact P.ffi_authorize_role. Qed.
Print Assumptions C18_system_authz_role.
