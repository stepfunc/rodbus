(* C14 - Reconnect delays follow the retry strategy: doubling, capped, reset on success.
   Statements, each followed by Print Assumptions; proofs longer than a few lines are in Proofs/RetryProofs.v and
   Proofs/RetryTaskProofs.v. *)
From Coq Require Import NArith List Lia.
From Rodbus Require Import Model.Retry Spec.RetrySpec Proofs.RetryProofs Gen.Defaults Gen.RetryArms Model.RetryTask Proofs.RetryTaskProofs.
Import ListNotations.
Local Open Scope N_scope.

(* For every min <= max (with 2*max representable as a Duration) and EVERY sequence of
   after_failed_connect / after_disconnect / reset calls, the strategy object returns exactly the
   Spec's values: failed connect number k since the last reset -> min(min * 2^(k-1), max);
   disconnect -> min; reset restarts the sequence. *)
Theorem C14_strategy : forall mn mx, mn <= mx -> 2 * mx <= dur_max ->
  forall ops, run (create mn mx) ops = Some (spec mn mx 0 ops).
Proof. intros mn mx Hle Hov ops. apply strategy_refines; try assumption. now apply create_tracks. Qed.
Print Assumptions C14_strategy.

Theorem C14_invariant : forall mn mx, mn <= mx -> 2 * mx <= dur_max ->
  forall ops k d, dmin d = mn -> dmax d = mx -> cur d = delay_spec mn mx k ->
  run d ops = Some (spec mn mx k ops).
Proof. intros mn mx Hle Hov ops k d Hmn Hmx Hc. apply strategy_refines; try assumption. now repeat split. Qed.
Print Assumptions C14_invariant.

Theorem C14_no_panic : forall mn mx, mn <= mx -> 2 * mx <= dur_max ->
  forall ops, run (create mn mx) ops <> None.
Proof. intros mn mx Hle Hov ops. rewrite C14_strategy by assumption. discriminate. Qed.
Print Assumptions C14_no_panic.

Theorem C14_bounds : forall mn mx k, mn <= mx -> mn <= delay_spec mn mx k <= mx.
Proof.
  intros mn mx k H. unfold delay_spec. assert (2 ^ N.of_nat k <> 0) by (apply N.pow_nonzero; lia).
  split; [|lia]. apply N.min_glb; [|assumption]. nia.
Qed.
Print Assumptions C14_bounds.

(* the default strategy (constants regenerated from retry.rs) satisfies the hypotheses *)
Theorem C14_default_ok : default_retry_min <= default_retry_max /\ 2 * default_retry_max <= dur_max.
Proof. vm_compute. split; discriminate. Qed.
Print Assumptions C14_default_ok.

Example C14_nonvacuous : run (create 1000 60000) [Fail; Fail; Disc; Fail; Reset; Fail]
  = Some [Some 1000; Some 2000; Some 1000; Some 4000; None; Some 1000].
Proof. vm_compute. reflexivity. Qed.

(* Task level (Model/RetryTask.v: TCP/TLS client task, serial client task, RTU server task).
   The theorems hold for every variant, every task state and every event. *)

(* the delay announced to the listener is the delay armed, in the same step, right after it *)
Theorem C14_task_announced_is_armed : forall v t e t' o k d, tstep v t e = Some (t', o) -> In (OAnnounce k d) o ->
  (exists pre, o = pre ++ [OAnnounce k d; OArm d]) /\ phase t' = Waiting d.
Proof. intros v t e t' o k d. exact (tstep_in v t e t' o (OAnnounce k d)). Qed.
Print Assumptions C14_task_announced_is_armed.

(* a client task arms no timer it has not announced (the RTU server has no listener) *)
Theorem C14_task_armed_was_announced : forall v t e t' o d, v <> RtuServer -> tstep v t e = Some (t', o) -> In (OArm d) o ->
  exists k pre, o = pre ++ [OAnnounce k d; OArm d].
Proof. intros v t e t' o d Hv H Hin. exact (tstep_in v t e t' o (OArm d) H Hin Hv). Qed.
Print Assumptions C14_task_armed_was_announced.

(* while a delay d is pending nothing happens until that timer fires (or the channel is disabled):
   in particular no connect / open attempt *)
Theorem C14_task_waiting_is_quiet : forall v t e t' o d, phase t = Waiting d -> tstep v t e = Some (t', o) ->
  (t' = t /\ o = []) \/
  (e = Elapsed /\ o = [OElapsed d] /\ phase t' = Idle /\ strat t' = strat t) \/
  (e = Interrupt /\ o = [ODisabled] /\ phase t' = Idle /\ strat t' = strat t).
Proof. exact waiting_is_quiet. Qed.
Print Assumptions C14_task_waiting_is_quiet.

Theorem C14_task_attempt_only_when_idle : forall v t e t' o, tstep v t e = Some (t', o) -> In OAttempt o -> phase t = Idle.
Proof. exact attempt_only_when_idle. Qed.
Print Assumptions C14_task_attempt_only_when_idle.

(* reset happens exactly on a successful connect / open, together with the Connected / Open announcement *)
Theorem C14_task_reset_iff_success : forall v t e t' o, tstep v t e = Some (t', o) ->
  (In OReset o <-> (phase t = Idle /\ e = AttemptOk)) /\
  (In OReset o -> o = OAttempt :: on_success v /\ cur (strat t') = dmin (strat t') /\ phase t' = Up).
Proof. exact reset_iff_success. Qed.
Print Assumptions C14_task_reset_iff_success.

Theorem C14_task_up_iff_reset : forall v t e t' o, v <> RtuServer -> tstep v t e = Some (t', o) -> (In OUp o <-> In OReset o).
Proof. exact up_iff_reset. Qed.
Print Assumptions C14_task_up_iff_reset.

(* for all min <= max and ALL event lists the task never panics, the delays it arms are exactly the
   Spec's delays for the strategy calls the event list amounts to, and (clients) the announced
   delays are the armed delays *)
Theorem C14_task : forall v mn mx, mn <= mx -> 2 * mx <= dur_max -> forall evs,
  exists t' o, trun v (tinit mn mx) evs = Some (t', o) /\
    armed o = somes (spec mn mx 0 (calls_of KIdle evs)) /\
    (v <> RtuServer -> announced o = armed o).
Proof. exact task_delays_from_init. Qed.
Print Assumptions C14_task.

(* the model's step function is defined from the generated table of the arms of the `match` on the session result in
   tcp/client.rs run_connection, serial/client.rs try_open_and_run and serial/server.rs run (Gen/RetryArms.v). In every
   task: every way a live session is lost (I/O error, bad frame, too many response timeouts) takes its delay from
   after_disconnect(), a failed attempt from after_failed_connect(), a disabled channel calls neither and does not wait,
   a closed channel ends the task, and a success resets. C14_task above is proved from these rows: a source in which one
   arm calls the other method regenerates the table and the proof stops compiling. *)
Theorem C14_task_arms : forall v,
  (forall k, session_arm v (end_of k) = ArmWait CallAfterDisconnect) /\
  session_arm v EndDisabled = ArmNoWait /\
  session_arm v EndShutdown = ArmShutdown /\
  failed_call v = CallAfterFailedConnect /\
  resets_on_success v = true.
Proof. exact (fun v => conj (lost_arm_is_after_disconnect v) (conj (disabled_arm_does_not_wait v) (conj (shutdown_arm_ends_the_task v)
              (conj (failed_attempt_is_after_failed_connect v) (success_resets v))))). Qed.
Print Assumptions C14_task_arms.

(* after a connection that ended in ANY of the three ways the next waits are min (after the disconnect), then
   min, 2 min, 4 min .. for the failed connects that follow: the success reset the back-off and the disconnect
   does not advance it *)
Theorem C14_task_after_any_loss : forall v mn mx k, mn <= mx -> 2 * mx <= dur_max ->
  exists t' o, trun v (tinit mn mx) [AttemptFails; Elapsed; AttemptFails; Elapsed; AttemptOk; Lost k; Elapsed; AttemptFails; Elapsed; AttemptFails; Elapsed; AttemptFails] = Some (t', o) /\
    armed o = [mn; N.min (2 * mn) mx; mn; mn; N.min (2 * mn) mx; N.min (4 * mn) mx].
Proof. exact after_any_loss. Qed.
Print Assumptions C14_task_after_any_loss.

Example C14_task_nonvacuous :
  option_map snd (trun TcpClient (tinit 20 70) [AttemptFails; Elapsed; AttemptFails; Elapsed; AttemptOk; Lost LMaxTimeouts; Elapsed; AttemptFails])
  = Some [OAttempt; OAnnounce AfterFailedConnect 20; OArm 20; OElapsed 20;
          OAttempt; OAnnounce AfterFailedConnect 40; OArm 40; OElapsed 40;
          OAttempt; OUp; OReset; OAnnounce AfterDisconnect 20; OArm 20; OElapsed 20;
          OAttempt; OAnnounce AfterFailedConnect 20; OArm 20].
Proof. vm_compute. reflexivity. Qed.
