(* C15 (with C16 and C09) - the SERVER FRONT-END as one composed model (Model/ServerFront.v):
   accept arm (filter guard on the generated shape, Model/Filter.v) -> tracker (Model/Tracker.v) ->
   connection establishment raced with the command channel: TLS handshake / role extraction on the
   generated tables (Model/Tls.v) -> session step with the session's authorization type
   (Model/Server.v). The layers are composed, not re-proved (Proofs/ServerFrontProofs.v): the tracker
   component is a run of Model/Tracker.v (projection), the guard is the C16 gate lemma, admission is
   the C09 admission lemma, the role of the authorization queries comes from ServerTheorems.auth_log (C08).
   Statements, each followed by Print Assumptions.

   H = arbitrary application handlers, flt = arbitrary address filter, tr = plain TCP or TLS with
   any minimum version / certificate mode / optional authorization policy, m = any max_sessions,
   us = any unit configuration (unit id -> handler object -> state); evs = ANY list of front-end events (accepts from any address by peers that
   talk Modbus in clear, stay silent or start a TLS handshake with any offer and certificate;
   handshake completions; frames; session ends; commands; shutdown; handle drop). *)
From Coq Require Import NArith List String.
From Rodbus Require Import Base.ServerTypes Model.Filter Spec.FilterSpec Model.Tracker
  Spec.TlsSpec Model.Tls Model.Server Model.ServerFront Proofs.ServerFrontProofs.
Import ListNotations.
Local Open Scope N_scope.

(* Front_served, "only if": a Modbus frame of a connection is processed - and a handler or
   authorization call made on its behalf - only if the connection was accepted from an address the
   filter admits AND its establishment succeeded ... *)
Theorem Front_served_only_if : forall (St : Type) (H : handler St) flt tr m us evs f o id log reply,
  frun H flt tr (finit m us) evs = Some (f, o) -> In (Processed id log reply) o ->
  exists addr pk a, In (FAccept addr pk) evs /\ admits flt addr /\ establish tr pk = Some a.
Proof.
  intros St H flt tr m us evs f o id log reply Hr Hin.
  destruct (processed_conn H flt tr _ _ _ _ _ _ _ _ Hr Hin) as (f1 & fr & c & a & _ & _ & Eph & (A & B & C) & _).
  exists (c_addr c), (c_peer c), a. auto.
Qed.
Print Assumptions Front_served_only_if.

(* ... where establishment succeeds exactly for plain TCP, or for a TLS peer whose handshake the C09
   admission Spec accepts (valid certificate under the configured mode, offered version at or above
   the minimum, a single role extension in authorization mode); the session's authorization type is
   then the policy with exactly that role, or None without authorization *)
Theorem Front_establish_spec : forall tr pk a, establish tr pk = Some a ->
  match tr with
  | PlainTcp => a = NoAuth
  | TlsTransport min mode authz =>
      exists p v role, pk = PeerTls p /\
        expected (endpoint_of ServerSide min mode (is_some authz) false) p = Established v role /\
        a = match authz, role with Some pol, Some r => AuthHandler pol (bytes_of_string r) | _, _ => NoAuth end
  end.
Proof. exact establish_spec. Qed.
Print Assumptions Front_establish_spec.

(* Front_served, step level "iff": of all frames arriving, exactly those of connections that are being
   served AND are still running sessions of the tracker (not evicted, not shut down, not ended) are
   processed *)
Theorem Front_served_iff : forall (St : Type) (H : handler St) flt tr (f : front) id fr f' o,
  fstep H flt tr f (FFrame id fr) = Some (f', o) ->
  ((exists log reply, In (Processed id log reply) o) <->
   (alive (srv f) id = true /\ exists c a, find_conn id (conns f) = Some c /\ c_phase c = Serving a)).
Proof.
  intros St H flt tr f id fr f' o Hs. split.
  - intros (log & reply & Hin). destruct (processed_origin H flt tr _ _ _ _ _ _ _ Hs Hin) as (fr0 & c & a & _ & Ef & Eph & Ea & _).
    split; [exact Ea|]. now exists c, a.
  - intros (Ea & c & a & Ef & Eph). cbn [fstep] in Hs. rewrite Ef, Eph, Ea in Hs.
    destruct (handle_frame H LTcp a (units f) fr) as [[rp units'] lg]. exists lg, rp.
    destruct rp as [bytes|err|].
    + injection Hs as _ <-. now left.
    + destruct (track f _) as [[s' o']|]; [|discriminate]. injection Hs as _ <-. now left.
    + destruct (track f _) as [[s' o']|]; [|discriminate]. injection Hs as _ <-. now left.
Qed.
Print Assumptions Front_served_iff.

(* ... and the "if" direction, in two steps: a connection from an admitted address arriving while the
   server runs gets a session of its own (also at the limit), waiting in the handshake (TLS) or served
   at once (plain TCP); when its handshake completes while it is still a running session and the
   admission Spec accepts the peer, it is served from then on with exactly that authorization (and by
   Front_served_iff every frame it sends while alive is processed) *)
Theorem Front_accept_admitted : forall (St : Type) (H : handler St) flt tr m us evs (f : front) o addr pk f' o',
  frun H flt tr (finit m us) evs = Some (f, o) -> running (srv f) = true -> admits flt addr ->
  fstep H flt tr f (FAccept addr pk) = Some (f', o') ->
  let id := next_id (trk (srv f)) in
  alive (srv f') id = true /\
  find_conn id (conns f') = Some {| c_id := id; c_addr := addr; c_peer := pk;
                                    c_phase := match tr with PlainTcp => Serving NoAuth | TlsTransport _ _ _ => Handshaking end |}.
Proof. exact @front_accept_admitted. Qed.
Print Assumptions Front_accept_admitted.

Theorem Front_handshake_establishes : forall (St : Type) (H : handler St) flt tr (f : front) id c a f' o,
  find_conn id (conns f) = Some c -> c_phase c = Handshaking -> c_peer c <> PeerSilent -> alive (srv f) id = true ->
  establish tr (c_peer c) = Some a -> fstep H flt tr f (FHandshakeDone id) = Some (f', o) ->
  srv f' = srv f /\ find_conn id (conns f') = Some {| c_id := c_id c; c_addr := c_addr c; c_peer := c_peer c; c_phase := Serving a |}.
Proof.
  intros St H flt tr f id c a f' o Ef Eph Hns Hal Hest Hs. cbn [fstep] in Hs. rewrite Ef, Eph, Hal in Hs.
  destruct (c_peer c) eqn:Ep; [| contradiction |]; rewrite Hest in Hs; injection Hs as <- _; cbn [srv conns];
    (split; [reflexivity|]); rewrite (find_set_phase _ _ _ _ Ef), Ep; reflexivity.
Qed.
Print Assumptions Front_handshake_establishes.

(* Front_role: every authorization query made on behalf of a connection carries exactly the role the
   handshake extracted from the certificate that connection presented; queries exist only in
   authorization mode (frames as the reader delivers them: frame_ok) *)
Theorem Front_role : forall (St : Type) (H : handler St) flt tr m us evs f o id log reply k u arg r,
  frames_ok evs -> frun H flt tr (finit m us) evs = Some (f, o) -> In (Processed id log reply) o -> In (EvAuth k u arg r) log ->
  exists min mode pol addr p v role,
    tr = TlsTransport min mode (Some pol) /\ In (FAccept addr (PeerTls p)) evs /\ admits flt addr /\
    expected (endpoint_of ServerSide min mode true false) p = Established v (Some role) /\ r = bytes_of_string role.
Proof. exact @front_role. Qed.
Print Assumptions Front_role.

(* Front_bound: at most max(1, max_sessions) sessions at any time, handshaking ones included (a
   connection the front-end works for is one of the tracker's running sessions) *)
Theorem Front_bound : forall (St : Type) (H : handler St) flt tr m us evs (f : front) o,
  frun H flt tr (finit m us) evs = Some (f, o) ->
  (List.length (sessions (trk (srv f))) <= Nat.max 1 m)%nat /\
  (List.length (live_ids (sessions (trk (srv f)))) <= Nat.max 1 m)%nat.
Proof.
  intros St H flt tr m us evs f o Hr. destruct (frun_projects H flt tr _ _ _ _ Hr) as (tevs & tos & R).
  exact (Rodbus.Proofs.TrackerProofs.bound m tevs (srv f) tos R).
Qed.
Print Assumptions Front_bound.

Theorem Front_serving_is_tracked : forall (St : Type) (f : front (St := St)) id,
  alive (srv f) id = true -> In id (live_ids (sessions (trk (srv f)))).
Proof. intros St f id. apply Rodbus.Proofs.TrackerProofs.alive_live. Qed.
Print Assumptions Front_serving_is_tracked.

(* Front_shutdown: once the server has stopped nothing is alive and nothing is processed for any
   connection, whatever arrives afterwards; the stop itself closes every running session and the listener *)
Theorem Front_shutdown : forall (St : Type) (H : handler St) flt tr m us evs (f : front) o,
  frun H flt tr (finit m us) evs = Some (f, o) -> running (srv f) = false ->
  (forall id, alive (srv f) id = false) /\
  forall evs' f' o', frun H flt tr f evs' = Some (f', o') -> forall id log reply, ~ In (Processed id log reply) o'.
Proof.
  intros St H flt tr m us evs f o Hr Hstop. destruct (frun_projects H flt tr _ _ _ _ Hr) as (tevs & tos & R).
  destruct (Rodbus.Proofs.TrackerProofs.after_stop m tevs (srv f) tos R Hstop) as [_ Hdead]. split; [exact Hdead|].
  intros evs' f' o' Hr' id log reply Hin.
  destruct (frun_split H flt tr _ _ _ _ _ Hr' Hin) as (evs1 & e & evs2 & f1 & o1 & f2 & o2 & _ & R1 & S & Hx).
  destruct (processed_origin H flt tr _ _ _ _ _ _ _ S Hx) as (fr & c & a & _ & _ & _ & Ea & _).
  rewrite (stopped_srv_stays H flt tr _ _ _ _ Hstop R1), Hdead in Ea. discriminate.
Qed.
Print Assumptions Front_shutdown.

Theorem Front_stop_closes : forall (St : Type) (H : handler St) flt tr (f : front) e f' o,
  running (srv f) = true -> (e = FShutdown \/ e = FHandleDropped) -> fstep H flt tr f e = Some (f', o) ->
  running (srv f') = false /\ (forall id, alive (srv f') id = false) /\
  (forall id, alive (srv f) id = true -> In (Track (Closed id)) o) /\ In (Track ListenerClosed) o.
Proof. exact @front_stop_closes. Qed.
Print Assumptions Front_stop_closes.

(* the tracker component of every composed run is a run of the tracker model, so every C15 theorem
   applies to it *)
Theorem Front_projects : forall (St : Type) (H : handler St) flt tr evs (f f' : front) o,
  frun H flt tr f evs = Some (f', o) -> exists tevs tos, Tracker.run (srv f) tevs = Some (srv f', tos).
Proof. exact @frun_projects. Qed.
Print Assumptions Front_projects.

(* non-vacuity: one TLS server with authorization, max_sessions 3, filter Any: a good peer, a peer with
   another role, a wrong-authority certificate, a role-less certificate, a silent peer, a peer talking
   Modbus in clear (its accept evicts the oldest session); after every operation every connection is
   probed - composed model and layer Specs give the same picture *)
From Rodbus Require Import Spec.FrontSpec Model.ServerFrontEval.
Example Front_nonvacuous :
  let ops := [OConnect 1 KGood; OConnect 2 KViewer; OConnect 1 KBad; OConnect 1 KRoleless; OConnect 1 KSilent; OConnect 1 KPlain] in
  model_trace Any TTlsAuthz 3 ops
    = "S:operator|S:operator,S:viewer|S:operator,S:viewer,-|S:operator,S:viewer,-,-|S:operator,S:viewer,-,-,-|-,S:viewer,-,-,-,-"%string
  /\ spec_trace FAny TTlsAuthz 3 ops = model_trace Any TTlsAuthz 3 ops.
Proof. vm_compute. split; reflexivity. Qed.
