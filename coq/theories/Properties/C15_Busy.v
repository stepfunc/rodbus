(* C15 with sessions inside a slow application handler: the server task never waits on a session.
   Statements, each followed by Print Assumptions; the lemmas are in Proofs/ServerBusyProofs.v.

   Model/ServerBusy.v puts busy sessions (inside a request handler that has not returned) around the tracker model;
   how apply_command hands a command to the sessions is generated from tcp/server.rs (Gen/ServerForward.v):
   `sender.try_send(command)`. With `sender.send(command).await` the server task can be left waiting (see the last
   Example), and the proofs, which go through `forwarding_is_try_send`, stop compiling. *)
From Coq Require Import NArith List.
From Rodbus Require Import Model.Tracker Gen.ServerForward Model.ServerBusy Spec.BusySpec Proofs.ServerBusyProofs.
Import ListNotations.
Local Open Scope N_scope.

(* whatever the sessions do - however many are busy, however full their command queues are - and whatever arrives
   (connections, level changes, shutdown, a dropped handle), the server task is never left waiting for a session *)
Theorem C15_Busy_server_task_never_waits : forall evs c c' o,
  waiting c = false -> brun_gen c evs = Some (c', o) -> waiting c' = false.
Proof.
  unfold brun_gen. rewrite forwarding_is_try_send. intros evs c c' o Hw H. exact (proj1 (brun_projects evs c c' o Hw H)).
Qed.
Print Assumptions C15_Busy_server_task_never_waits.

(* ... so no event is ever left unprocessed because of a session *)
Theorem C15_Busy_no_event_deferred : forall c e c' o, waiting c = false -> bstep_gen c e = Some (c', o) -> ~ In BDeferred o.
Proof. unfold bstep_gen. rewrite forwarding_is_try_send. exact bstep_never_deferred. Qed.
Print Assumptions C15_Busy_no_event_deferred.

(* the two functions the arms of ServerTask::run call contain no await point (generated counts) *)
Theorem C15_Busy_loop_bodies_have_no_await : apply_command_awaits = 0%nat /\ handle_awaits = 0%nat.
Proof. exact loop_bodies_have_no_await. Qed.
Print Assumptions C15_Busy_loop_bodies_have_no_await.

(* the tracker evolves exactly as if no session were busy: every theorem of Properties/C15.v (bound, oldest evicted,
   shutdown closes all, isolation ..) holds for the tracker state of this model on the projected events *)
Theorem C15_Busy_tracker_unaffected : forall evs c c' o, waiting c = false -> brun_gen c evs = Some (c', o) ->
  exists outs, run (base c) (project evs) = Some (base c', outs).
Proof.
  unfold brun_gen. rewrite forwarding_is_try_send. intros evs c c' o Hw H. exact (proj2 (brun_projects evs c c' o Hw H)).
Qed.
Print Assumptions C15_Busy_tracker_unaffected.

(* a session that ends tells the server task with `send(SessionClose(id)).await` (generated: session_close_notice), which
   is never lost: after a client closed or sent garbage the tracker holds no record of that session any more, however
   many sessions end at the same moment - so ended sessions never use up slots (with a `try_send` notice the model has
   no SessionEnded event here, this proof and C15_Busy_refines_spec stop compiling) *)
Theorem C15_Busy_ended_session_record_removed : forall c k c' o, waiting c = false -> running (base c) = true ->
  (brun_gen c (bexpand (ClientClose k)) = Some (c', o) \/ brun_gen c (bexpand (Garbage k)) = Some (c', o)) ->
  ~ In k (map fst (sessions (trk (base c')))).
Proof. exact ended_session_record_removed. Qed.
Print Assumptions C15_Busy_ended_session_record_removed.

(* for every max_sessions and every script the observable trace (open sockets, port, value, answered parked
   requests) is the Spec's: level changes, connections, requests on other sessions and shutdown are served at once
   while a handler is parked; a session the server closes meanwhile keeps only its socket until the handler returns *)
Theorem C15_Busy_refines_spec : forall m ops t, btrace_gen (binit m) ops = Some t -> t = bstrace m bsinit ops.
Proof.
  unfold btrace_gen. rewrite forwarding_is_try_send. intros m ops t.
  exact (btrace_refines m ops (binit m) t (bprompt_init m)).
Qed.
Print Assumptions C15_Busy_refines_spec.

(* a session parked in its handler, nine level changes, then a new connection, a
   request on it, shutdown, a connection attempt, release *)
Example C15_Busy_nonvacuous :
  btrace_gen (binit 2) [Connect; Park 0; SetDecode; SetDecode; SetDecode; SetDecode; SetDecode; SetDecode; SetDecode; SetDecode; SetDecode;
                        Connect; Req 1 3; Stop; Connect; Release]
  = Some [([0], true, 0, []); ([0], true, 0, []);
          ([0], true, 0, []); ([0], true, 0, []); ([0], true, 0, []); ([0], true, 0, []); ([0], true, 0, []); ([0], true, 0, []);
          ([0], true, 0, []); ([0], true, 0, []); ([0], true, 0, []);
          ([0; 1], true, 0, []); ([0; 1], true, 3, []); ([0], false, 3, []); ([0], false, 3, []); ([], false, 3, [(0, false)])].
Proof. vm_compute. reflexivity. Qed.

(* had apply_command awaited `sender.send(command)`: after the ninth level change the server task waits on session 0,
   and the connection and the shutdown that follow are not processed *)
Example C15_Busy_send_await_would_wait :
  exists c o, brun ForwardSendAwait (binit 2) ([BBase (Accept true); BPark 0] ++ repeat (BBase Command) 9 ++ [BBase (Accept true); BBase Shutdown]) = Some (c, o) /\
    waiting c = true /\ running (base c) = true /\ live_ids (sessions (trk (base c))) = [0] /\ In BDeferred o.
Proof. vm_compute. eexists. eexists. split; [reflexivity|]. repeat split. cbn. tauto. Qed.
