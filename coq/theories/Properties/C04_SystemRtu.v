(* C04 for the RTU client as a whole (with C06): bytes of one serial connection arriving in
   arbitrary read chunks, the production reader in its RTU response role (ReadBuffer +
   RtuParser(Response) + next_frame loop, Model/Reader.v), then the client task's execute_request
   loop (Model/ClientTask.v) with request r in flight, calling Request::handle_response
   (Model/ClientRequest.v) on the FIRST frame the reader delivers - there is no transaction id on
   a serial line - equals the reference of Spec/SystemClientRtuSpec.v: cut the stream by the RTU
   rule for responses; the first frame decides (genuine reply -> its value; well-formed exception
   reply -> its code; otherwise bad reply); an unknown function code, an over-long frame or a CRC
   that does not verify before a complete frame is BadFrame and ends the connection; EOF / I/O
   error ends it; silence leaves the request pending (its timer: C12).
   Composition of C06_chunking (reader = ref_rtu_frames for every chunk schedule), C04_ok_iff /
   C04_exception_only / C04_exception / C04_total and C12_exact_frame / C10 (the task completes on
   the frame, fails on a read error). `st` is ANY task state with r in flight; `reqs` gives the
   Modbus content of each request id; the stream consists of bytes; all chunks arrive before the
   request's timer instant. The reply's address byte is not compared with the request's unit id
   (the code does not; C04_system_rtu_first_frame makes that explicit).
   Statements with short proofs from the lemmas of Proofs/, each followed by Print Assumptions. *)
From Coq Require Import NArith List.
From Rodbus Require Import Gen.SessionErrors.
From Rodbus Require Base.Frame Base.ClientTypes Model.Crc Model.ClientTask Spec.Framing Spec.ClientCodecSpec Spec.SystemClientSpec Spec.SystemClientRtuSpec Model.SystemClient Model.SystemClientRtu Proofs.ClientSystemProofs Proofs.ClientSystemRtuProofs.
Import ListNotations.
Module F := Rodbus.Base.Frame.
Module CT := Rodbus.Base.ClientTypes.
Module CS := Rodbus.Spec.ClientCodecSpec.
Module T := Rodbus.Model.ClientTask.
Module SS := Rodbus.Spec.SystemClientSpec.
Module SR := Rodbus.Spec.SystemClientRtuSpec.
Import SystemClient SystemClientRtu ClientSystemProofs ClientSystemRtuProofs.
Local Open Scope N_scope.

(* EVERY byte stream s, EVERY cut of s into non-empty reads, every way the stream behaves after s:
   what the caller of r observes is the Spec's verdict, and the task model's own completion record
   for r is the class of that verdict *)
Theorem C04_system_rtu : forall cfg reqs st r t d,
  T.ph st = T.PInFlight r t d -> T.partial st = None -> CT.request_wf (reqs (T.rq_id r)) ->
  forall s chunks fi, Framing.bytes s -> concat chunks = s -> Forall (fun c => c <> []) chunks ->
  verdict_for (T.rq_id r) (client_system_rtu cfg reqs st chunks fi) = SR.ref_client_result_rtu (reqs (T.rq_id r)) s fi /\
  first_completion (T.rq_id r) (snd (fst (client_system_rtu cfg reqs st chunks fi))) = task_class (SR.ref_client_result_rtu (reqs (T.rq_id r)) s fi).
Proof.
  intros cfg reqs st r t d Hph Hpartial Hwf s chunks fi Hb Hc Hne. 
  rewrite (client_system_rtu_frames cfg reqs st s), ref_client_result_rtu_decided, <- (first_rtu_frame_find t) by assumption.
  exact (task_on_ref cfg reqs st r t d Hph Hpartial Hwf _ _).
Qed.
Print Assumptions C04_system_rtu.

(* the verdict, clause by clause (`first_rtu_frame s fi` is the first frame the RTU rule cuts from s) *)
Theorem C04_system_rtu_ok_iff : forall mr s fi v, SR.ref_client_result_rtu mr s fi = SS.VValue v <->
  exists f, first_rtu_frame s fi = Some f /\ CS.ref_reply mr (F.f_pdu f) = Some v.
Proof. intros. rewrite ref_client_result_rtu_decided. apply decided_value. Qed.
Print Assumptions C04_system_rtu_ok_iff.

Theorem C04_system_rtu_exception_iff : forall mr s fi c, SR.ref_client_result_rtu mr s fi = SS.VException c <->
  exists f, first_rtu_frame s fi = Some f /\ CS.ref_reply mr (F.f_pdu f) = None /\ CS.ref_exception mr (F.f_pdu f) = Some c.
Proof. intros. rewrite ref_client_result_rtu_decided. apply decided_exception. Qed.
Print Assumptions C04_system_rtu_exception_iff.

Theorem C04_system_rtu_bad_frame_iff : forall mr s fi, SR.ref_client_result_rtu mr s fi = SS.VBadFrame <->
  first_rtu_frame s fi = None /\ exists e, snd (Framing.ref_rtu_frames Framing.Responses s fi) = F.EndBad e.
Proof. intros. rewrite ref_client_result_rtu_decided. apply decided_bad_frame. Qed.
Print Assumptions C04_system_rtu_bad_frame_iff.

(* a first frame (address, delimited PDU) whose CRC bytes lo, hi are not the CRC of address and PDU:
   BadFrame, whatever follows on the line ... *)
Theorem C04_system_rtu_crc_failure : forall mr addr pdu lo hi rest fi,
  Framing.bytes (addr :: pdu ++ [lo; hi] ++ rest) -> Framing.delimited Framing.Responses pdu -> (length pdu <= 253)%nat ->
  (lo + 256 * hi) <> Crc.crc (addr :: pdu) ->
  SR.ref_client_result_rtu mr (addr :: pdu ++ [lo; hi] ++ rest) fi = SS.VBadFrame.
Proof.
  intros mr addr pdu lo hi rest fi Hb Hd Hl Hne. rewrite rtu_first_frame_verdict by assumption.
  now destruct (N.eqb_spec (lo + 256 * hi) (Crc.crc (addr :: pdu))).
Qed.
Print Assumptions C04_system_rtu_crc_failure.

(* ... and BadFrame (like EOF / an I/O error) before a complete frame ends the connection *)
Theorem C04_system_rtu_connection_ends : forall cfg reqs st r t d,
  T.ph st = T.PInFlight r t d -> T.partial st = None -> CT.request_wf (reqs (T.rq_id r)) ->
  forall s chunks fi, Framing.bytes s -> concat chunks = s -> Forall (fun c => c <> []) chunks ->
  (SR.ref_client_result_rtu (reqs (T.rq_id r)) s fi = SS.VBadFrame -> In (T.OEnd SeBadFrame) (snd (fst (client_system_rtu cfg reqs st chunks fi)))) /\
  (SR.ref_client_result_rtu (reqs (T.rq_id r)) s fi = SS.VIo -> In (T.OEnd SeIoError) (snd (fst (client_system_rtu cfg reqs st chunks fi)))).
Proof.
  intros cfg reqs st r t d Hph Hpartial Hwf s chunks fi Hb Hc Hne. 
  rewrite (client_system_rtu_frames cfg reqs st s), ref_client_result_rtu_decided, <- (first_rtu_frame_find t) by assumption.
  exact (task_on_connection_ends cfg reqs st r t d Hph Hpartial Hwf _ _).
Qed.
Print Assumptions C04_system_rtu_connection_ends.

(* a first frame with the correct CRC decides by its PDU alone, whatever its address byte is and
   whatever follows it *)
Theorem C04_system_rtu_first_frame : forall mr addr pdu rest fi,
  Framing.bytes (Framing.rtu_frame_of addr pdu ++ rest) -> Framing.delimited Framing.Responses pdu -> (length pdu <= 253)%nat ->
  SR.ref_client_result_rtu mr (Framing.rtu_frame_of addr pdu ++ rest) fi = SS.ref_reply_verdict mr pdu.
Proof.
  intros mr addr pdu rest fi Hb Hd Hl. unfold Framing.rtu_frame_of in *. cbn [app] in *. rewrite <- app_assoc in *.
  now rewrite rtu_first_frame_verdict, N.add_comm, <- N.div_mod', N.eqb_refl by assumption.
Qed.
Print Assumptions C04_system_rtu_first_frame.

(* the result does not depend on how the serial driver hands over the bytes *)
Theorem C04_system_rtu_chunking_independent : forall cfg reqs st r t d,
  T.ph st = T.PInFlight r t d -> T.partial st = None -> CT.request_wf (reqs (T.rq_id r)) ->
  forall c1 c2 fi, Framing.bytes (concat c1) -> concat c1 = concat c2 -> Forall (fun c => c <> []) c1 -> Forall (fun c => c <> []) c2 ->
  verdict_for (T.rq_id r) (client_system_rtu cfg reqs st c1 fi) = verdict_for (T.rq_id r) (client_system_rtu cfg reqs st c2 fi).
Proof.
  intros cfg reqs st r t d Hph Hp Hwf c1 c2 fi Hb Hc H1 H2.
  rewrite (proj1 (C04_system_rtu cfg reqs st r t d Hph Hp Hwf (concat c1) c1 fi Hb eq_refl H1)).
  now rewrite (proj1 (C04_system_rtu cfg reqs st r t d Hph Hp Hwf (concat c1) c2 fi Hb (eq_sym Hc) H2)).
Qed.
Print Assumptions C04_system_rtu_chunking_independent.

(* non-vacuity: read 2 holding registers from 16 sent to unit 1; the line delivers the genuine reply
   (from "unit" 9: not checked) byte by byte in odd chunks, followed by noise; then the same frame
   with one CRC byte damaged *)
Example C04_system_rtu_nonvacuous :
  let cfg := {| T.cfg_cap := 4; T.cfg_res := 1 |} in
  let rq := {| T.rq_id := 3; T.rq_kind := T.KRead; T.rq_timeout := 1000 |} in
  let st := T.set_ph (T.init 1 None 5 9) (T.PInFlight rq 7 1000) in
  let frame := Framing.rtu_frame_of 9 [3; 4; 171; 205; 0; 5] in
  verdict_for 3 (client_system_rtu cfg (fun _ => CT.RReadHoldingRegisters (16, 2)) st
                   [firstn 2 frame; firstn 3 (skipn 2 frame); skipn 5 frame ++ [1; 2]] F.FinPending)
  = SS.VValue (CT.RespRegisters [(16, 43981); (17, 5)])
  /\
  verdict_for 3 (client_system_rtu cfg (fun _ => CT.RReadHoldingRegisters (16, 2)) st
                   [firstn 8 frame; [N.lxor (nth 8 frame 0) 1]] F.FinPending)
  = SS.VBadFrame.
Proof. vm_compute. split; reflexivity. Qed.
