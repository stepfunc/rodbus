(* C13 - "Disabled after a disable, which also closes an open connection" / a lost connection / shutdown: the listener is
   told AFTER the connection is closed.  Statements, each followed by Print Assumptions; the proofs are in Proofs/C13Close.v
   or a few lines from it.

   The listener callback is awaited by the task (`listener.update(..).get().await`): whoever uses it as a gate sees the
   world as it is at that await point.  `ClientLoop::run(&mut phys)` returning is the model output `OEnd e`;
   Gen/ClientScope.v records, for the TCP / TLS task (run_connection) and the serial task (try_open_and_run), what the arm
   taken for `e` does, in order, until the owner of the PhysLayer returns - drop(phys), listener.update, fail_requests_for.
   (The generator, translator/gens/clienttask.py, refuses to write the table unless run_inner reports Disabled, and run
   reports Shutdown, only after that call has returned.)
   `notified_closed arm o` (Model/ClientClose.v) walks the outputs: open from the Connected notification to the OEnd whose
   arm closes the connection before it notifies or waits; true iff every other notification finds it closed. *)
From Coq Require Import NArith List.
From Rodbus Require Import Spec.Lifecycle Gen.SessionErrors Gen.ClientScope Model.ClientTask Model.SerialTask Model.ClientClose Proofs.C13Serial Proofs.C13Close.
Import ListNotations.
Local Open Scope N_scope.

(* the source: every arm closes the connection before it notifies the listener or starts to wait *)
Theorem C13_tcp_arms_close_first : forall e, closed_first (tcp_arm e) = true.
Proof. exact tcp_arms_close_first. Qed.
Print Assumptions C13_tcp_arms_close_first.

Theorem C13_serial_arms_close_first : forall e, closed_first (serial_arm e) = true.
Proof. exact serial_arms_close_first. Qed.
Print Assumptions C13_serial_arms_close_first.

(* one step, from any state: if the connection is open only in a connected phase (or the task is gone), the step's
   notifications are in order and the same holds afterwards *)
Theorem C13_close_step : forall cfg arm, (forall e, closed_first (arm e) = true) -> forall s e open, Inv open s -> P arm open (step cfg s e).
Proof. exact step_P. Qed.
Print Assumptions C13_close_step.

(* all event lists: Disabled, WaitAfterFailedConnect, WaitAfterDisconnect, Connecting and Shutdown are never reported while
   a connection is open; Connected is the only notification made with one *)
Theorem C13_notified_with_connection_closed : forall cfg hn mt rmin rmax es,
  notified_closed tcp_arm (init_outputs ++ snd (run cfg (init hn mt rmin rmax) es)) = true.
Proof. intros cfg hn mt rmin rmax es. apply notified_closed_run. exact tcp_arms_close_first. Qed.
Print Assumptions C13_notified_with_connection_closed.

Theorem C13_serial_notified_with_port_closed : forall cfg hn rmin rmax es,
  notified_closed serial_arm (init_outputs ++ snd (srun cfg (sinit hn rmin rmax) es)) = true.
Proof.
  intros cfg hn rmin rmax es. destruct (serial_is_tcp_run cfg es (sinit hn rmin rmax)) as [-> _]. cbn [ss sinit].
  apply notified_closed_run. exact serial_arms_close_first.
Qed.
Print Assumptions C13_serial_notified_with_port_closed.

(* non-vacuity: the scan rejects a Disabled made before the close (an arm that notifies first), accepts the real order *)
Example C13_close_nonvacuous :
  let bad := fun e : session_error => match e with SeDisabled => [FxNotify; FxScopeEnd] | _ => tcp_arm e end in
  let o := [OListen LDisabled; OListen LConnecting; ODial; OListen LConnected; OEnd SeDisabled; OListen LDisabled] in
  notified_closed tcp_arm o = true /\ notified_closed bad o = false.
Proof. vm_compute. split; reflexivity. Qed.
