(* C04 - Client accepts only the genuine matching reply and returns exactly its data.
   Statements with short proofs from the lemmas of Proofs/, each followed by Print Assumptions.

   `handle_response r pdu` is the model of Request::handle_response on the payload of the frame
   that matched the request (function byte check, get_error_for, the request-specific parser,
   collection of the iterator into the returned vector). `request_wf r` says r is a request as the
   API constructs it (ranges validated by AddressRange::try_from; see C04_built_requests_wf).
   `ref_reply r pdu = Some v` is the Spec's "pdu is the genuine reply to r and carries v";
   `ref_exception r pdu = Some c` is "pdu is a well-formed exception reply with code c".
   pdu is an unbounded list of arbitrary numbers (the 253-byte bound is not needed). *)
From Coq Require Import NArith List Arith.
From Rodbus Require Import Base.Outcome Base.ClientTypes Model.ClientRequest Model.ClientPaths Spec.ClientCodecSpec
  Proofs.PackProofs Proofs.ClientCodecProofs Proofs.ClientReplyProofs Proofs.ClientPathsProofs Gen.ClientTables.
Import ListNotations.
Local Open Scope N_scope.

(* Success iff the reply carries the request's function code, has exactly the length implied by
   the request and (writes) echoes address and value/quantity; the value returned is the Spec's. *)
Theorem C04_ok_iff : forall r pdu v, request_wf r ->
  (handle_response r pdu = Ok v <-> ref_reply r pdu = Some v).
Proof. exact ok_iff. Qed.
Print Assumptions C04_ok_iff.

(* The values of a successful bit read: exactly `count` of them, the k-th is bit (k mod 8) of data
   byte (k / 8), indexed upward from the requested start; the byte-count byte bc is not constrained. *)
Theorem C04_read_bits_data : forall s n pdu v r,
  r = RReadCoils (s, n) \/ r = RReadDiscreteInputs (s, n) -> request_wf r ->
  handle_response r pdu = Ok v ->
  exists bc data l, pdu = reply_fc r :: bc :: data /\ len data = bytes_for_bits n /\ v = RespBits l /\
    length l = N.to_nat n /\
    forall k d, (k < N.to_nat n)%nat ->
      nth k l d = (s + N.of_nat k, N.testbit (nth (k / 8)%nat data 0) (N.of_nat (k mod 8)%nat)).
Proof. exact read_bits_data. Qed.
Print Assumptions C04_read_bits_data.

Theorem C04_read_registers_data : forall s n pdu v r,
  r = RReadHoldingRegisters (s, n) \/ r = RReadInputRegisters (s, n) -> request_wf r ->
  handle_response r pdu = Ok v ->
  exists bc data l, pdu = reply_fc r :: bc :: data /\ len data = 2 * n /\ v = RespRegisters l /\
    length l = N.to_nat n /\
    forall k d, (k < N.to_nat n)%nat ->
      nth k l d = (s + N.of_nat k, nth (2 * k)%nat data 0 * 256 + nth (2 * k + 1)%nat data 0).
Proof. exact read_registers_data. Qed.
Print Assumptions C04_read_registers_data.

(* Round trip with the encoding a conforming server produces (Spec `pack` = LSB-first, padding 0;
   registers big-endian): any vector of the requested length comes back unchanged, whatever the
   byte-count byte. *)
Theorem C04_roundtrip_bits : forall r s bits bc,
  r = RReadCoils (s, len bits) \/ r = RReadDiscreteInputs (s, len bits) -> request_wf r ->
  handle_response r (reply_fc r :: bc :: pack bits) = Ok (RespBits (indexed s (fun k => nth k bits false) (len bits))).
Proof.
  intros r s bits bc Hr Hwf. apply (ok_iff _ _ _ Hwf).
  destruct Hr as [-> | ->]; cbn [ref_reply reply_fc]; rewrite N.eqb_refl, pack_length, N.eqb_refl; cbn [andb];
    do 2 f_equal; unfold indexed; apply map_ext; intros k; f_equal; apply pack_bit.
Qed.
Print Assumptions C04_roundtrip_bits.

Theorem C04_roundtrip_registers : forall r s regs bc,
  r = RReadHoldingRegisters (s, len regs) \/ r = RReadInputRegisters (s, len regs) -> request_wf r ->
  handle_response r (reply_fc r :: bc :: flat_map be regs) = Ok (RespRegisters (indexed s (fun k => nth k regs 0) (len regs))).
Proof.
  intros r s regs bc Hr Hwf. apply (ok_iff _ _ _ Hwf).
  pose proof (len_flat_map_be regs) as Hl.
  destruct Hr as [-> | ->]; cbn [ref_reply reply_fc]; rewrite N.eqb_refl, Hl, N.eqb_refl; cbn [andb];
    do 2 f_equal; unfold indexed; apply map_ext; intros k; f_equal; apply reg_at_flat_map.
Qed.
Print Assumptions C04_roundtrip_registers.

(* A well-formed exception reply (function code + 0x80, one code byte) yields exactly that
   exception code: the returned ExceptionCode converts back to the byte that was received. *)
Theorem C04_exception : forall r c,
  handle_response r [reply_fc r + 128; c] = Err (EException (excode_of_u8 c)).
Proof. exact exception_reply. Qed.
Print Assumptions C04_exception.

Theorem C04_exception_code : forall c, u8_of_excode (excode_of_u8 c) = c.
Proof. exact excode_roundtrip. Qed.
Print Assumptions C04_exception_code.

(* ... and an exception is reported only for such a reply. *)
Theorem C04_exception_only : forall r pdu ex, request_wf r ->
  handle_response r pdu = Err (EException ex) ->
  exists c, ref_exception r pdu = Some c /\ ex = excode_of_u8 c.
Proof.
  intros r pdu ex Hwf H. pose proof (handle_response_spec r pdu Hwf) as S. rewrite H in S.
  destruct (ref_reply r pdu); [discriminate|]. destruct (ref_exception r pdu) as [c|]; [injection S as ->; eauto|].
  destruct S as (e & [= <-] & []).
Qed.
Print Assumptions C04_exception_only.

(* Every other reply fails the request with an error that is not an exception: never data. *)
Theorem C04_otherwise : forall r pdu, request_wf r ->
  ref_reply r pdu = None -> ref_exception r pdu = None ->
  exists e, handle_response r pdu = Err e /\ ~ is_exception e.
Proof.
  intros r pdu Hwf Hr Hx. pose proof (handle_response_spec r pdu Hwf) as S. rewrite Hr, Hx in S.
  destruct S as (e & He & Hb). exists e. split; [exact He|]. now destruct e.
Qed.
Print Assumptions C04_otherwise.

(* ... and never a panic (u16 additions in the iterators cannot overflow for a validated range). *)
Theorem C04_total : forall r pdu, request_wf r -> handle_response r pdu <> Panic.
Proof. exact response_total. Qed.
Print Assumptions C04_total.

(* The callback APIs (CallbackSession, FfiChannel) hand read callbacks the iterator instead of the
   collected Vec. Driving RegisterIterator::next to exhaustion (`bytes.get(pos..pos+2)`,
   `(high << 8) | low`, index `pos + start`) yields exactly what the Channel path's collect_vec
   yields; bit reads use BitIterator::next on both paths; writes pass the parsed echo. So for a
   reply made of bytes every theorem above holds for what a callback computes. *)
Theorem C04_paths_agree : forall r pdu, request_wf r -> Forall is_u8 pdu ->
  handle_response_iter r pdu = handle_response r pdu.
Proof. exact handle_response_iter_eq. Qed.
Print Assumptions C04_paths_agree.

Theorem C04_paths_deliver_same : forall p q r pdu, request_wf r -> Forall is_u8 pdu ->
  deliver_via p r pdu = deliver_via q r pdu.
Proof. intros p q r pdu Hwf Hb. destruct p, q; cbn [deliver_via]; rewrite ?handle_response_iter_eq by assumption; reflexivity. Qed.
Print Assumptions C04_paths_deliver_same.

(* every request the API constructs from u16 arguments is well-formed - including read requests
   given an arbitrary (start, count) struct literal, which limited_count validates *)
Theorem C04_built_requests_wf : forall c r, call_wf c -> build c = Ok r -> request_wf r.
Proof. exact build_wf. Qed.
Print Assumptions C04_built_requests_wf.

(* non-vacuity: the standard's read-coils example reply (CD 6B 05 for 19 coils from 19), an echo,
   and the unvalidated-range witness of finding F10 *)
Example C04_example_bits :
  handle_response (RReadCoils (19, 19)) [1; 3; 205; 107; 5]
  = Ok (RespBits (map (fun '(k, b) => (19 + k, b))
      [(0,true);(1,false);(2,true);(3,true);(4,false);(5,false);(6,true);(7,true);
       (8,true);(9,true);(10,false);(11,true);(12,false);(13,true);(14,true);(15,false);
       (16,true);(17,false);(18,true)])).
Proof. vm_compute. reflexivity. Qed.
Example C04_example_echo : handle_response (RWriteMultipleRegisters (1, 2) [10; 258]) [16; 0; 1; 0; 2] = Ok (RespRange 1 2).
Proof. vm_compute. reflexivity. Qed.
(* the iterators' u16 additions do overflow for a range that was never validated ... *)
Example C04_unvalidated_range_would_panic : handle_response (RReadCoils (65535, 2)) [1; 1; 3] = Panic.
Proof. vm_compute. reflexivity. Qed.
(* ... but the API cannot construct such a request from any (start, count) literal (limited_count
   validates the range, finding F10): C04_built_requests_wf, here on the witness *)
Example C04_unvalidated_range_not_constructible : build (CReadCoils 65535 2) = Err EAddressOverflow.
Proof. vm_compute. reflexivity. Qed.
