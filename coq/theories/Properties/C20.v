(* C20 - Protocol decoding (logging) is purely observational.
   Statements, each followed by Print Assumptions; the lemmas about the language are in Proofs/LogLangProofs.v. *)
From Coq Require Import List String.
From Rodbus Require Import Model.LogLang Proofs.LogLangProofs Gen.DecodeUses.
Import ListNotations.

(* The language of Model/LogLang.v: level-independent steps, level-guarded log-only blocks, level
   changes. For EVERY program, state and pair of levels the observable result (final state and
   ordered outputs: wire bytes, request results, handler invocations) is the same. *)
Theorem C20_level_independent : forall (Level St Out Log : Type) (prog : list (stmt Level St Out Log)) lv lv' s,
  observable _ _ _ _ (run _ _ _ _ lv s prog) = observable _ _ _ _ (run _ _ _ _ lv' s prog).
Proof. intros. now rewrite (observable_steps_only prog lv lv s), (observable_steps_only prog lv' lv s). Qed.
Print Assumptions C20_level_independent.

(* Level changes at arbitrary positions (run-time changes through a client or server handle) never
   change, interrupt or reorder the observable effects: erasing them all gives the same observables. *)
Theorem C20_level_changes_unobservable : forall (Level St Out Log : Type) (prog : list (stmt Level St Out Log)) lv lv' s,
  observable _ _ _ _ (run _ _ _ _ lv s prog) = observable _ _ _ _ (run _ _ _ _ lv' s (erase _ _ _ _ prog)).
Proof.
  intros. rewrite (observable_steps_only prog lv lv s), (observable_steps_only (erase _ _ _ _ prog) lv' lv s).
  now rewrite steps_only_erase.
Qed.
Print Assumptions C20_level_changes_unobservable.

Theorem C20_insert_level_change : forall (Level St Out Log : Type) (p1 p2 : list (stmt Level St Out Log)) l lv s,
  observable _ _ _ _ (run _ _ _ _ lv s (p1 ++ SetLevel _ _ _ _ l :: p2)) = observable _ _ _ _ (run _ _ _ _ lv s (p1 ++ p2)).
Proof.
  intros. rewrite (C20_level_changes_unobservable _ _ _ _ (p1 ++ _ :: p2) lv lv s).
  now rewrite (C20_level_changes_unobservable _ _ _ _ (p1 ++ p2) lv lv s), erase_insert.
Qed.
Print Assumptions C20_insert_level_change.

(* The tie to the code: the translator inventories every place in rodbus/src where a decode level
   can influence control flow (predicate calls, comparisons, matches on a level) and classifies its
   context. Every one of them is a construct of the language above: a log-only block, a Display
   body, an if/else running the same code with and without a tracing span, or (Definition_) the body
   of a level predicate in decode.rs itself, which only reads the level. *)
Definition observational (k : use_kind) : bool :=
  match k with LogOnly | InDisplay | SpanOnly | Definition_ => true | OtherUse => false end.

Theorem C20_uses_observational : forallb (fun u => observational (snd u)) decode_uses = true.
Proof. vm_compute. reflexivity. Qed.
Print Assumptions C20_uses_observational.

(* non-vacuity: the inventory is not empty and contains log-only uses in both task loops *)
Example C20_inventory_nonempty :
  Nat.leb 10 (List.length decode_uses) = true /\
  existsb (fun u => match u with (f, _, _, LogOnly) => String.eqb f "server/task.rs" | _ => false end) decode_uses = true /\
  existsb (fun u => match u with (f, _, _, SpanOnly) => String.eqb f "client/task.rs" | _ => false end) decode_uses = true.
Proof. vm_compute. repeat split. Qed.

(* non-vacuity of the language theorem: a program that logs differently at two levels *)
Example C20_logs_differ_observables_equal :
  let prog := [LogIf bool nat nat nat (fun l => l) (fun _ s => s); Step _ _ _ _ (fun s => (S s, [s]))] in
  r_log _ _ _ _ (run _ _ _ _ true 5 prog) <> r_log _ _ _ _ (run _ _ _ _ false 5 prog) /\
  observable _ _ _ _ (run _ _ _ _ true 5 prog) = observable _ _ _ _ (run _ _ _ _ false 5 prog).
Proof. vm_compute. split; [discriminate|reflexivity]. Qed.
