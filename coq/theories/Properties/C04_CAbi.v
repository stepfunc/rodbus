(* C04 for C callers: "a well-formed exception reply yields exactly that exception code" through
   the C ABI. Every C-ABI completion callback (BitReadCallback, RegisterReadCallback,
   WriteCallback: on_failure(err.into())) receives the error through
   `impl From<rodbus::ExceptionCode> for ffi::RequestError` (conversions.rs), regenerated into
   Gen/FfiTables.v together with exception.rs' From<u8>. For EVERY code byte the name the callback
   receives is the Spec's (Modbus standard name, otherwise Unknown).
   Each statement is followed by Print Assumptions. *)
From Coq Require Import NArith List String.
From Rodbus Require Import Base.Outcome Model.ClientRequest Spec.ClientCodecSpec Spec.CAbiSpec
  Model.ClientCAbi Gen.ClientTables Gen.FfiTables Proofs.ClientReplyProofs Proofs.FfiProofs.
Import ListNotations.
Local Open Scope N_scope.

Theorem C04_cabi_exception_name : forall c, cabi_callback_exception c = cabi_exception_name c.
Proof.
  intros c. unfold cabi_exception_name. rewrite standard_names_agree. exact (proj1 (proj2 (exception_bytes c))).
Qed.
Print Assumptions C04_cabi_exception_name.

Theorem C04_cabi_exception_reply : forall r c ex,
  handle_response r [reply_fc r + 128; c] = Err (EException ex) ->
  name_ffi_request_error (exception_to_ffi (exception_from_u8 (u8_of_excode ex))) = cabi_exception_name c.
Proof.
  intros r c ex. rewrite exception_reply. intros H. inversion H; subst. rewrite excode_roundtrip. apply C04_cabi_exception_name.
Qed.
Print Assumptions C04_cabi_exception_reply.

(* the two regenerated copies of exception.rs' From<u8> table (Gen/ClientTables.v used by the
   codec model, Gen/FfiTables.v used by the C-ABI model) agree on the byte *)
Theorem C04_cabi_tables_agree : forall c, exception_to_u8 (exception_from_u8 c) = u8_of_excode (excode_of_u8 c).
Proof.
  intros c. rewrite excode_roundtrip. exact (proj2 (proj2 (exception_bytes c))).
Qed.
Print Assumptions C04_cabi_tables_agree.

Example C04_cabi_busy : cabi_callback_exception 6 = "ModbusExceptionServerDeviceBusy"%string.
Proof. reflexivity. Qed.
