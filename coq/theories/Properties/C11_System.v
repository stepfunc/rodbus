(* C11 end to end: transaction ids on the wire and in the byte stream.
   Statements with short proofs from the lemmas of Proofs/, each followed by Print Assumptions. *)
From Coq Require Import NArith List.
From Rodbus Require Import Base.Outcome.
From Rodbus Require Base.Frame Base.ClientTypes Model.ClientRequest Model.ClientTask Model.Format Spec.Framing Spec.ClientCodecSpec Spec.ClientSpec Spec.SystemClientSpec Model.SystemClient Proofs.C11Proofs Proofs.ClientCodecProofs Proofs.ClientSystemProofs.
Import ListNotations.
Module F := Rodbus.Base.Frame.
Module CT := Rodbus.Base.ClientTypes.
Module CR := Rodbus.Model.ClientRequest.
Module CS := Rodbus.Spec.ClientCodecSpec.
Module T := Rodbus.Model.ClientTask.
Module SS := Rodbus.Spec.SystemClientSpec.
Import SystemClient ClientSystemProofs.
Local Open Scope N_scope.

(* the encode direction (C11_txid composed with C03_exact): in ANY run of the task model the k-th
   request taken from the queue while connected (k = 0, 1, 2, ... without bound) is stamped with
   a transaction id tx such that, whatever the request is (unit id, API call with u16 arguments),
   if the encoder accepts it the bytes handed to the transport are exactly the protocol encoding
   with transaction id k mod 65536 - and the request was within the protocol limits *)
Theorem C11_system_encode : forall cfg mt hn rmin rmax es k tx id uid c bs,
  nth_error (stamp_pairs (snd (T.run cfg (T.init hn mt rmin rmax) es))) k = Some (tx, id) ->
  CT.call_wf c -> CR.client_submit Format.Tcp tx uid c = Ok bs ->
  bs = CS.ref_encode_tcp (N.of_nat k mod 65536) uid c /\ CS.within_limits c.
Proof.
  intros cfg mt hn rmin rmax es k tx id uid c bs Hk Hwf Hs.
  assert (Ht : tx = ClientSpec.txid_spec (N.of_nat k)).
  { apply (C11Proofs.c11_txid cfg mt hn rmin rmax es k tx). rewrite stamps_of_pairs. rewrite (map_nth_error fst k _ Hk). reflexivity. }
  unfold ClientSpec.txid_spec in Ht. subst tx.
  exact (ClientCodecProofs.submit_exact Format.Tcp _ uid c bs Hwf Hs).
Qed.
Print Assumptions C11_system_encode.

(* frames with other transaction ids change nothing, at the level of bytes: any prefix of complete
   MBAP frames none of which carries the request's transaction id (stale replies, duplicates of
   earlier replies, unsolicited frames) can be deleted from the stream without changing what the
   request's caller observes (by C04_system this is what the real pipeline delivers) *)
Theorem C11_system_other_tx_skipped : forall mr t pre fs s fi,
  Framing.framed pre fs -> Forall (fun f => SS.tx_is t f = false) fs ->
  SS.ref_client_result mr t (pre ++ s) fi = SS.ref_client_result mr t s fi.
Proof. exact other_tx_skipped. Qed.
Print Assumptions C11_system_other_tx_skipped.
