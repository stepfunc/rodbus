(* C10 - Every client request completes exactly once, under every interleaving.
   Statements, each followed by Print Assumptions; the proofs are in Proofs/C10Proofs.v or a few lines from it.
   The model is the transition system of Model/ClientTask.v; `es` ranges over ALL lists of events
   (submit in any style, enable, disable, set-decode, shutdown, drop handle, abort, connect results,
   frames / partial frames / garbage / EOF / read error, write faults and delays, timer, tick, and
   the recv step of the task in any position: every interleaving of queueing and processing).
   pending s = in flight ++ queued ++ senders waiting for a queue slot;
   accepted s e = the request id a Submit event introduces (made through a live handle; after the
   task is gone it completes at once with Shutdown). *)
From Coq Require Import NArith List Permutation.
From Rodbus Require Import Model.ClientTask Proofs.ClientBase Proofs.C10Proofs.
Import ListNotations.
Local Open Scope N_scope.

(* the conservation law: a step neither loses nor duplicates a request *)
Theorem C10_step_conserve : forall cfg s e, done_empty s ->
  let '(s', o) := step cfg s e in
  Permutation (pending s' ++ completed o) (pending s ++ accepted s e) /\ done_empty s'.
Proof. exact step_conserve. Qed.
Print Assumptions C10_step_conserve.

Theorem C10_run_conserve : forall cfg es s, done_empty s ->
  let '(s', o) := run cfg s es in
  Permutation (pending s' ++ completed o) (pending s ++ all_accepted cfg s es) /\ done_empty s'.
Proof. exact run_conserve. Qed.
Print Assumptions C10_run_conserve.

(* never completed twice *)
Theorem C10_at_most_once : forall cfg hn mt rmin rmax es,
  NoDup (all_accepted cfg (init hn mt rmin rmax) es) -> NoDup (completed (snd (run cfg (init hn mt rmin rmax) es))).
Proof. intros cfg hn mt rmin rmax es H. apply (exactly_once cfg hn mt rmin rmax es H). Qed.
Print Assumptions C10_at_most_once.

(* never lost: an accepted request has completed or is still queued / waiting for a slot / in flight *)
Theorem C10_accounted : forall cfg hn mt rmin rmax es id,
  NoDup (all_accepted cfg (init hn mt rmin rmax) es) -> In id (all_accepted cfg (init hn mt rmin rmax) es) ->
  In id (completed (snd (run cfg (init hn mt rmin rmax) es))) \/ In id (pending (fst (run cfg (init hn mt rmin rmax) es))).
Proof. intros cfg hn mt rmin rmax es id H. apply (exactly_once cfg hn mt rmin rmax es H). Qed.
Print Assumptions C10_accounted.

(* a completed request is no longer pending, and only submitted requests complete *)
Theorem C10_completed_is_final : forall cfg hn mt rmin rmax es id,
  NoDup (all_accepted cfg (init hn mt rmin rmax) es) ->
  In id (completed (snd (run cfg (init hn mt rmin rmax) es))) ->
  ~ In id (pending (fst (run cfg (init hn mt rmin rmax) es))) /\ In id (all_accepted cfg (init hn mt rmin rmax) es).
Proof.
  intros cfg hn mt rmin rmax es id H. destruct (exactly_once cfg hn mt rmin rmax es H) as (_ & _ & E1 & E2 & _). intros Hc. split; [apply E2|apply E1]; exact Hc.
Qed.
Print Assumptions C10_completed_is_final.

(* once nothing is pending, submitted = completed; a terminated (or aborted) task has nothing pending *)
Theorem C10_terminal : forall cfg hn mt rmin rmax es,
  NoDup (all_accepted cfg (init hn mt rmin rmax) es) ->
  (pending (fst (run cfg (init hn mt rmin rmax) es)) = [] ->
     forall id, In id (all_accepted cfg (init hn mt rmin rmax) es) <-> In id (completed (snd (run cfg (init hn mt rmin rmax) es)))) /\
  (ph (fst (run cfg (init hn mt rmin rmax) es)) = PDone -> pending (fst (run cfg (init hn mt rmin rmax) es)) = []).
Proof. exact terminal. Qed.
Print Assumptions C10_terminal.

Theorem C10_submit_accepted : forall s r st, (handles s > 0)%nat -> accepted s (EvSubmit (CReq r) st) = [rq_id r].
Proof. intros s r st H. unfold accepted. destruct (handles s); [inversion H|reflexivity]. Qed.
Print Assumptions C10_submit_accepted.

(* not left pending forever: an in-flight request has a finite deadline and the timer step at that
   instant completes it; a write in progress ends (a listening phase takes the request at the head
   of its queue: C10Proofs.queued_not_stuck) *)
Theorem C10_no_stuck_in_flight : forall cfg s r tx d, ph s = PInFlight r tx d ->
  let s1 := fst (step cfg s (EvTick (fire cfg d - now s))) in
  In (rq_id r) (completed (snd (step cfg s1 EvTimer))).
Proof.
  intros cfg s r tx d Eph. cbn [step fst]. cbn [ph set_now now]. rewrite Eph.
  rewrite due_after_tick. apply finish_completes.
Qed.
Print Assumptions C10_no_stuck_in_flight.

(* a write in progress ends however long the transport takes nothing (a peer that does not read): when the clock reaches
   the timer instant of the transmission bound (write start + request timeout, `wdl`) the timer step finds the write
   done - the request is then in flight - or completes the request; no release of the transport is needed *)
Theorem C10_no_stuck_writing : forall cfg s r tx u, ph s = PWriting r tx u ->
  let s1 := fst (step cfg s (EvTick (fire cfg (wdl s) - now s))) in
  (exists d, ph (fst (step cfg s1 EvTimer)) = PInFlight r tx d) \/ In (rq_id r) (completed (snd (step cfg s1 EvTimer))).
Proof. exact writing_not_stuck. Qed.
Print Assumptions C10_no_stuck_writing.

(* a slow write on a transport that is not parked is done at its own instant *)
Theorem C10_slow_write_done : forall cfg s r tx u, ph s = PWriting r tx u -> wpark s = 0%nat ->
  let s1 := fst (step cfg s (EvTick (fire cfg u - now s))) in
  exists d, ph (fst (step cfg s1 EvTimer)) = PInFlight r tx d.
Proof. exact slow_write_done. Qed.
Print Assumptions C10_slow_write_done.

(* the error tells what happened: a completion with this error has this cause (one direction; see `explains` in
   Proofs/C10Proofs.v, repeated here in words):
   NoConnection    -> the request was taken from the queue by a not-connected phase
   ResponseTimeout -> the deadline branch of the outstanding request, at or after its timer instant
   Io / BadFrame   -> the read error / EOF / failed write / write not done at its bound (write start + request
                       timeout) / rejected header that ended that connection
                       (the same step reports the session end with that reason)
   Ok / Exception / BadResponse -> the frame carrying the outstanding transaction id
   BadRequest      -> rejected by the encoder when taken from the queue while connected
   Shutdown        -> the task is gone after this step (terminated, aborted, was gone already), or the
                       submitting try_send itself was rejected (full queue)
   Internal        never *)
Theorem C10_class : forall cfg s e id res, In (OComplete id res) (snd (step cfg s e)) ->
  explains cfg s e (fst (step cfg s e)) (snd (step cfg s e)) id res.
Proof. intros cfg s e id res. apply step_class. Qed.
Print Assumptions C10_class.

(* non-vacuity: shutdown queued behind an in-flight request with more requests behind it *)
Example C10_nonvacuous :
  let cfg := {| cfg_cap := 4; cfg_res := 1 |} in
  let rq i := CReq {| rq_id := i; rq_kind := KRead; rq_timeout := 100 |} in
  let r := run cfg (init 1 None 5 9)
        [EvSubmit CEnable SFuture; EvRecv; EvConnect true; EvSubmit (rq 1%nat) SFuture; EvRecv; EvSubmit CShutdown SFuture;
         EvSubmit (rq 2%nat) SCallback; EvSubmit (rq 3%nat) SFfi; EvFrame 0 RpGenuine; EvRecv; EvSubmit (rq 4%nat) SFfi] in
  completed (snd r) = [1; 2; 3; 4]%nat /\ ph (fst r) = PDone /\ pending (fst r) = [].
Proof. vm_compute. repeat split. Qed.
