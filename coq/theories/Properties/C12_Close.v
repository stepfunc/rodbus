(* C12 - "N consecutive timeouts drop the connection": dropped means closed, at once.
   Statements, each followed by Print Assumptions; the proofs are in Proofs/C13Close.v or a few lines from it.

   Gen/ClientScope.v records what the arm of run_connection taken for SessionError::MaxTimeouts does, in order, until the
   owner of the PhysLayer returns.  The peer must see the end of the connection when the N-th timeout in a row has
   completed its request - not a retry delay later. *)
From Coq Require Import NArith List.
From Rodbus Require Import Spec.ClientSpec Gen.SessionErrors Gen.ClientScope Model.ClientTask Model.ClientClose Proofs.C10Proofs Proofs.C12Proofs Proofs.C13Close.
Import ListNotations.
Local Open Scope N_scope.

(* the source: the MaxTimeouts arm closes the connection before it notifies the listener or starts the reconnect wait *)
Theorem C12_limit_arm_closes_first : closed_first (tcp_arm SeMaxTimeouts) = true /\ closed_first (serial_arm SeMaxTimeouts) = true.
Proof. split; reflexivity. Qed.
Print Assumptions C12_limit_arm_closes_first.

(* the step in which the counter reaches the limit: completion of the request, end of the session (MaxTimeouts), close, and
   only then WaitAfterDisconnect - scanned from "connection open" the notification finds it closed, and it stays closed *)
Theorem C12_limit_drop_closes : forall s r t', tc_step (tcount s) Timeout = (t', true) ->
  scan tcp_arm true (snd (finish s r (RErr ReResponseTimeout))) = (false, true) /\
  In (OEnd SeMaxTimeouts) (snd (finish s r (RErr ReResponseTimeout))).
Proof.
  intros s r t' Ht. pose proof (finish_counter s r Timeout) as E. cbn [outcome_result] in E. rewrite E, Ht.
  pose proof (end_session_C tcp_arm tcp_arms_close_first (set_tc (set_ph s PIdle) t') SeMaxTimeouts true) as C.
  pose proof (end_session_drops (set_tc (set_ph s PIdle) t') SeMaxTimeouts) as D.
  destruct (end_session (set_tc (set_ph s PIdle) t') SeMaxTimeouts) as [s' o]. cbn [snd app] in *. split; [exact C|right; exact (proj2 D)].
Qed.
Print Assumptions C12_limit_drop_closes.
